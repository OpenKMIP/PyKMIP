(* C04 - Object lifecycle is monotone and gates every cryptographic use.

   Statement (properties.jsonl): a managed cryptographic object moves only Pre-Active -> Active -> Deactivated, or
   into Compromised on a key- or CA-compromise revocation, and never returns to an earlier state; only Activate and
   Revoke change the state.  Encrypt, Decrypt, Sign, SignatureVerify, MAC and use as a wrapping key succeed only
   while the key is Active, is of the right kind, and its usage mask contains the matching bit (DeriveKey requires
   the Derive Key bit).  Destroy is refused for an Active object.

   The theorems are about Lifecycle.Model.step, the executable model of the guards of
   kmip/services/server/engine.py, tied to the code on every run by harness/c04.py (Lifecycle.Cases.check_hcase).
   Proofs: Lifecycle/LifecycleProofs.v; those given here are a few lines from its lemmas.
   Vocabulary (transition, property_move, wf, gate, usable): Lifecycle/Spec.v. *)
From PK Require Import Lifecycle.Model Lifecycle.Spec Lifecycle.LifecycleProofs Lifecycle.GuardTable Lifecycle.GuardTie.
From PKGen Require LifecycleGuards.
From Coq Require Import ZArith List Bool.
Import ListNotations.
Open Scope Z_scope.

(* 0. tie T *)
(* the guard skeleton extracted from engine.py on this run is the one the model was written against *)
Theorem guards_as_modelled : LifecycleGuards.guards = GuardTable.expected_guards.
Proof. exact GuardTie.guards_as_modelled. Qed.
Print Assumptions guards_as_modelled.

(* every operation handler (modelled or not) reaches the crypto engine / stored objects / State only as tabulated *)
Theorem reach_as_modelled : LifecycleGuards.reach = GuardTable.expected_reach.
Proof. exact GuardTie.reach_as_modelled. Qed.
Print Assumptions reach_as_modelled.

(* Register (plain or of a wrapped key) consults no stored object: outcome and new object do not depend on the store *)
Theorem register_uses_no_key : forall cok s t m,
  step cok s (Register t m) = (OK, add_obj s t m) /\ (forall v ob, lookup v (objs s) = Some ob -> lookup v (objs (add_obj s t m)) = Some ob).
Proof. intros. split. reflexivity. intros v ob L. unfold add_obj. rewrite lookup_add_objv, L. reflexivity. Qed.
Print Assumptions register_uses_no_key.

(* 1. allowed transitions *)
(* exactly what one step does to one stored object, for ANY store: type and mask are untouched and the State
   changes in one of the four listed ways (Lifecycle.Spec.transition) *)
Theorem step_transition_exact : forall cok s o out s' v ob ob',
  step cok s o = (out, s') ->
  lookup v (objs s) = Some ob -> lookup v (objs s') = Some ob' ->
  oty ob' = oty ob /\ omask ob' = omask ob /\ transition o out v (ost ob) (ost ob').
Proof. exact LifecycleProofs.step_transition_exact. Qed.
Print Assumptions step_transition_exact.

(* the property's reading (compromise c := KeyCompromise or CACompromise), for every store the engine can be in *)
Theorem step_transition : forall cok s o out s' v ob ob',
  wf s -> step cok s o = (out, s') ->
  lookup v (objs s) = Some ob -> lookup v (objs s') = Some ob' ->
  ost ob = ost ob'
  \/ (o = Activate v /\ ost ob = Some PreActive /\ ost ob' = Some Active)
  \/ (exists c, o = Revoke v c /\ ost ob = Some Active /\ ost ob' = Some Deactivated)
  \/ (exists c, o = Revoke v c /\ compromise c /\ ost ob' = Some Compromised).
Proof. exact LifecycleProofs.step_transition. Qed.
Print Assumptions step_transition.

Example step_transition_nonvacuous :
  let s := exec (empty_store 1) [(Create 4, true); (Activate 1, true)] in
  wf s /\ exists s' ob ob', step true s (Revoke 1 CACompromise) = (OK, s')
    /\ lookup 1 (objs s) = Some ob /\ lookup 1 (objs s') = Some ob'
    /\ ost ob = Some Active /\ ost ob' = Some Deactivated.
Proof.
  split. apply exec_wf, wf_empty. vm_compute. repeat eexists.
Qed.

(* 2. never back to an earlier state *)
(* every history (list of operations with their crypto-oracle inputs) from the empty store, cut anywhere: the rank
   of the object with identifier v after h1 is at most its rank after h1 ++ h2.  Induction over h2. *)
Theorem monotone : forall first h1 h2 v ob ob',
  lookup v (objs (exec (empty_store first) h1)) = Some ob ->
  lookup v (objs (exec (empty_store first) (h1 ++ h2))) = Some ob' ->
  orank (ost ob) <= orank (ost ob').
Proof. exact LifecycleProofs.monotone. Qed.
Print Assumptions monotone.

(* the same from any well-formed store, with type and mask *)
Theorem monotone_from : forall h s v ob ob',
  wf s -> lookup v (objs s) = Some ob -> lookup v (objs (exec s h)) = Some ob' ->
  orank (ost ob) <= orank (ost ob') /\ oty ob' = oty ob /\ omask ob' = omask ob.
Proof. exact LifecycleProofs.monotone_from. Qed.
Print Assumptions monotone_from.

(* states a stored object can be in at all *)
Theorem reachable_states : forall first h v ob,
  lookup v (objs (exec (empty_store first) h)) = Some ob ->
  ost ob = None \/ ost ob = Some PreActive \/ ost ob = Some Active \/ ost ob = Some Deactivated \/ ost ob = Some Compromised.
Proof.
  intros first h v ob L. destruct (exec_wf h _ (wf_empty first) _ _ L) as [_ [N1 N2]].
  destruct (ost ob) as [[]|]; auto; congruence.
Qed.
Print Assumptions reachable_states.

Example monotone_nonvacuous :
  let h1 := [(Create 4, true); (Activate 1, true)] in
  let h2 := [(Revoke 1 Superseded, true); (Activate 1, true); (Revoke 1 KeyCompromise, true); (Revoke 1 Unspecified, true)] in
  exists ob ob', lookup 1 (objs (exec (empty_store 1) h1)) = Some ob
              /\ lookup 1 (objs (exec (empty_store 1) (h1 ++ h2))) = Some ob'
              /\ orank (ost ob) = 1 /\ orank (ost ob') = 3.
Proof. vm_compute. repeat eexists. Qed.

(* 3. only Activate and Revoke change the state *)
Theorem only_activate_revoke_change_state : forall cok s o out s' v ob ob',
  step cok s o = (out, s') ->
  lookup v (objs s) = Some ob -> lookup v (objs s') = Some ob' ->
  ost ob' <> ost ob ->
  out = OK /\ (o = Activate v \/ exists c, o = Revoke v c).
Proof. exact LifecycleProofs.only_activate_revoke_change_state. Qed.
Print Assumptions only_activate_revoke_change_state.

Example only_activate_revoke_nonvacuous :
  exists s s' ob ob', step true s (Activate 1) = (OK, s') /\ lookup 1 (objs s) = Some ob
                   /\ lookup 1 (objs s') = Some ob' /\ ost ob' <> ost ob.
Proof.
  exists (exec (empty_store 1) [(Register Certificate 0, true)]). vm_compute. repeat eexists. discriminate.
Qed.

(* 4. cryptographic use is gated *)
(* gate s o (Lifecycle.Spec): Encrypt/Decrypt -> SymmetricKey, Active, Encrypt/Decrypt bit; Sign -> PrivateKey,
   Active, Sign bit; SignatureVerify -> PublicKey, Active, Verify bit; MAC -> SymmetricKey or
   SecretData, Active, MAC Generate bit; Get with wrapping -> wrapping key SymmetricKey, Active, Wrap Key bit; DeriveKey -> at least one base
   object, every base object of a derivable type with the Derive Key bit. *)
Theorem crypto_gated : forall cok s o s', step cok s o = (OK, s') -> gate s o.
Proof. exact LifecycleProofs.crypto_gated. Qed.
Print Assumptions crypto_gated.

(* stronger: the key material does not even reach the CryptographyEngine unless the gate holds *)
Theorem crypto_engine_gated : forall cok s o r s',
  step cok s o = (r, s') -> crypto_called o r = true -> gate s o.
Proof. exact LifecycleProofs.crypto_engine_gated. Qed.
Print Assumptions crypto_engine_gated.

(* at any point of any history *)
Theorem crypto_gated_history : forall first h e r s',
  step (snd e) (exec (empty_store first) h) (fst e) = (r, s') -> crypto_called (fst e) r = true ->
  gate (exec (empty_store first) h) (fst e).
Proof. intros. eapply LifecycleProofs.crypto_engine_gated; eassumption. Qed.
Print Assumptions crypto_gated_history.

(* gated operations never change a stored object (DeriveKey may add the derived key) *)
Theorem gated_store_unchanged : forall cok s o r s',
  step cok s o = (r, s') -> gated o = true ->
  s' = s \/ (exists us m len, o = DeriveKey us m len /\ r = OK /\ s' = add_objv s SymmetricKey m (negb (len =? 0))).
Proof. exact LifecycleProofs.gated_store_unchanged. Qed.
Print Assumptions gated_store_unchanged.

Example crypto_gated_nonvacuous :
  let s := exec (empty_store 1) [(Create 671, true); (CreateKeyPair 2 1, true); (Activate 1, true); (Activate 2, true); (Activate 3, true)] in
  step true s (Encrypt 1 true) = (OK, s) /\ step true s (Decrypt 1 true) = (OK, s) /\ step true s (Sign 3 true) = (OK, s)
  /\ step true s (SignatureVerify 2 true) = (OK, s) /\ step true s (MAC 1 true true) = (OK, s)
  /\ step true s (GetWrap 3 1) = (OK, s) /\ fst (step true s (DeriveKey [1] 12 128)) = OK
  /\ step true s (DeriveKey [1] 12 (-8)) = (Refused RParams InvalidField, s)
  /\ step true s (DeriveKey [1] 12 12) = (Refused RParams InvalidField, s)
  /\ step true s (Sign 2 true) = (Refused RType PermissionDenied, s)
  /\ step true s (Encrypt 3 true) = (Refused RType PermissionDenied, s).
Proof. vm_compute. repeat split. Qed.

(* MAC and "the right kind" (SymmetricKey or SecretData, Lifecycle.Spec.mac_kind): the object-type guard of
   _process_mac (/repo d24c06a; finding C04-mac-wrong-kind-* in notes/C04.md).  It is part of [gate] above and
   stated separately here at full strength. *)
Theorem mac_right_kind : forall cok s u alg data s',
  step cok s (MAC u alg data) = (OK, s') ->
  exists ob, lookup u (objs s) = Some ob /\ mac_kind (oty ob).
Proof.
  intros cok s u alg data s' H. destruct (proj2 (mac_spec cok s u alg data)) as (ob & L & K & _).
  { rewrite H. reflexivity. }
  exists ob. auto.
Qed.
Print Assumptions mac_right_kind.

Example mac_right_kind_nonvacuous :
  let s := exec (empty_store 1) [(Register SecretData 128, true); (Register PrivateKey 128, true); (Activate 1, true); (Activate 2, true)] in
  step true s (MAC 1 true true) = (OK, s) /\ step true s (MAC 2 true true) = (Refused RType PermissionDenied, s).
Proof. vm_compute. split; reflexivity. Qed.

(* Get with a wrapping specification, in full: wrapping key gate and kind of the wrapped object *)
Theorem get_wrap_gated : forall cok s u w r s',
  step cok s (GetWrap u w) = (r, s') -> entered r ->
  s' = s /\ usable s w SymmetricKey bWRAP_KEY /\ exists ob, lookup u (objs s) = Some ob /\ has_key_block (oty ob) = true.
Proof.
  intros cok s u w r s' H E. destruct (get_wrap_spec cok s u w) as [A B]. rewrite H in A, B.
  apply entered_enters in E. destruct (B E). auto.
Qed.
Print Assumptions get_wrap_gated.

(* the gates are not only necessary but sufficient (so the theorems above are not vacuous by over-refusal):
   with parameters present and the crypto engine not raising, a usable key gives OK *)
Theorem use_key_ok_iff : forall cok s u p t b,
  use_key cok s u p t b = OK <-> cok = true /\ p = true /\ usable s u t b.
Proof.
  intros cok s u p t b. split.
  - intro H. destruct (use_key_spec cok s u p t b) as [-> U]. { rewrite H. reflexivity. }
    rewrite (use_key_usable _ _ _ _ _ U) in H. destruct cok; [auto|discriminate].
  - intros (-> & -> & U). apply use_key_usable, U.
Qed.
Print Assumptions use_key_ok_iff.

(* Activate succeeds exactly from Pre-Active; a successful Revoke had KEY_COMPROMISE or found the object Active *)
Theorem activate_ok_iff : forall cok s u s',
  step cok s (Activate u) = (OK, s') <->
  (exists ob, lookup u (objs s) = Some ob /\ ost ob = Some PreActive) /\ s' = mkstore (set_state u Active (objs s)) (next_uid s).
Proof.
  intros cok s u s'. simpl. split.
  - intro H. destruct (lookup u (objs s)) as [ob|]; [|discriminate]. destruct (ost ob) as [st|] eqn:S; [|discriminate].
    destruct (state_eqb st PreActive) eqn:G; [|discriminate]. apply state_eqb_eq in G. subst st.
    injection H as <-. eauto.
  - intros [[ob [L S]] ->]. rewrite L, S. reflexivity.
Qed.
Print Assumptions activate_ok_iff.

Theorem revoke_ok_inv : forall cok s u c s',
  step cok s (Revoke u c) = (OK, s') ->
  exists ob st, lookup u (objs s) = Some ob /\ ost ob = Some st /\ (c = KeyCompromise \/ st = Active).
Proof.
  intros cok s u c s' H. simpl in H.
  destruct (lookup u (objs s)) as [ob|]; [|discriminate]. destruct (ost ob) as [st|] eqn:S; [|discriminate].
  exists ob, st. split. reflexivity. split. exact S.
  destruct (is_key_compromise c) eqn:C.
  - left. apply is_key_compromise_iff, C.
  - right. destruct (state_eqb st Active) eqn:G; [|discriminate]. apply state_eqb_eq, G.
Qed.
Print Assumptions revoke_ok_inv.

(* DeriveKey in full: base objects, a non-negative length that is a whole number of bytes (negative lengths refused since
   /repo 02e2981), and what it adds - a key whose value is empty exactly when the requested length is 0, which MAC then
   refuses ("A secret key value must be specified") *)
Theorem derive_key_gated : forall cok s us m len r s',
  step cok s (DeriveKey us m len) = (r, s') -> entered r ->
  us <> [] /\ 0 <= len /\ len mod 8 = 0 /\
  (forall u, In u us -> exists ob, lookup u (objs s) = Some ob /\ derivable (oty ob) = true /\ has_bit (omask ob) bDERIVE_KEY = true) /\
  (r = OK -> s' = add_objv s SymmetricKey m (negb (len =? 0))) /\ (r <> OK -> s' = s).
Proof.
  intros cok s us m len r s' H E. destruct (derive_key_spec cok s us m len) as (A & B & C). rewrite H in A, B, C.
  apply entered_enters in E. destruct (C E) as (P & Q & N & G). exact (conj N (conj P (conj Q (conj G (conj A B))))).
Qed.
Print Assumptions derive_key_gated.

Example derive_zero_length_nonvacuous :
  let s := exec (empty_store 1) [(Create 671, true); (DeriveKey [1] 671 0, true); (Activate 2, true)] in
  (exists ob, lookup 2 (objs s) = Some ob /\ oval ob = false /\ ost ob = Some Active)
  /\ step true s (MAC 2 true true) = (Refused RParams PermissionDenied, s).
Proof. vm_compute. repeat eexists. Qed.

(* 5. Destroy is refused for an Active object *)
Theorem destroy_refused_when_active : forall cok s u ob,
  lookup u (objs s) = Some ob -> ost ob = Some Active ->
  step cok s (Destroy u) = (Refused RState PermissionDenied, s).
Proof. exact LifecycleProofs.destroy_refused_when_active. Qed.
Print Assumptions destroy_refused_when_active.

(* conversely a successful Destroy removed an object that was not Active, and nothing else *)
Theorem destroy_ok_inv : forall cok s u s',
  step cok s (Destroy u) = (OK, s') ->
  (exists ob, lookup u (objs s) = Some ob /\ ost ob <> Some Active) /\
  lookup u (objs s') = None /\ (forall v, v <> u -> lookup v (objs s') = lookup v (objs s)).
Proof. exact LifecycleProofs.destroy_ok_inv. Qed.
Print Assumptions destroy_ok_inv.

Example destroy_nonvacuous :
  let s := exec (empty_store 1) [(Create 4, true); (Activate 1, true)] in
  (exists ob, lookup 1 (objs s) = Some ob /\ ost ob = Some Active)
  /\ fst (step true (exec s [(Revoke 1 CACompromise, true)]) (Destroy 1)) = OK.
Proof. vm_compute. repeat eexists. Qed.

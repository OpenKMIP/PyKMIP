(* C20 - Secrets stay out of logs and error messages at the default log level.
   proof (partial): by construction on the message model + the regenerated table of every log / raise /
   result-message site of the kmip package (translate/gen_logsites.py -> gen/LogSites.v).
   NOT covered by these theorems: the text third-party libraries put into their own exception
   messages, reachable at exactly the sites listed in Logs/Remainder.v (canary scan only). *)
From Coq Require Import ZArith List Bool String.
From PK Require Import Logs.Frag Logs.FragProofs Logs.Remainder.
From PKGen Require Import LogSites LogLevels.
Import ListNotations.
Open Scope string_scope.

(* What "the default logging level" is, tied to the code (config.py / server.py, regenerated each run):
   the configuration's default is INFO, nothing in KmipServerConfig removes settings, KmipServer.__init__ puts
   the configured level on the `kmip.server` logger unconditionally, and nothing else in the package changes
   logger levels, filters or routing (pinned).  With that threshold the records the model calls unobservable
   (logger.debug) are exactly those that are not written. *)
Theorem default_level_is_info :
  default_level = 20%Z /\ default_level_name = "INFO" /\
  server_sets_configured_level = true /\ config_removes_settings = false /\
  setlevel_sites = setlevel_pinned /\
  (forall k, observable k = observable_at default_level k) /\
  (forall name v, In (name, v) level_table -> name <> "DEBUG" -> (default_level <= v)%Z).
Proof.
  split; [reflexivity|]. split; [reflexivity|]. split; [reflexivity|]. split; [reflexivity|].
  split; [reflexivity|]. split; [exact observable_is_info_threshold|].
  intros name v Hin Hn.
  assert (H : forallb (fun nv => String.eqb (fst nv) "DEBUG" || (default_level <=? snd nv)%Z) level_table = true)
    by reflexivity.
  rewrite forallb_forall in H. apply H, orb_true_iff in Hin. destruct Hin as [E|E].
  - apply String.eqb_eq in E. contradiction.
  - apply Z.leb_le, E.
Qed.
Print Assumptions default_level_is_info.

(* a deployment whose effective level is below INFO does write the debug sites (Request/Response encoding...) *)
Theorem below_default_writes_secrets :
  exists s, In s log_sites /\ observable_at 10 (s_kind s) = true /\ existsb (is_secretish true) (s_parts s) = true.
Proof.
  assert (H : existsb (fun s => observable_at 10 (s_kind s) && existsb (is_secretish true) (s_parts s)) log_sites = true)
    by (vm_compute; reflexivity).
  apply existsb_exists in H. destruct H as [s [Hin Hs]]. apply andb_true_iff in Hs. exists s. tauto.
Qed.
Print Assumptions below_default_writes_secrets.

(* T-obligation, full strength: every observable site (INFO+ logging call, raise, result message, print)
   of the package formats only literals and arguments of a non-secret syntactic class, and nothing read
   from the request being decoded.  REFUTED by the faithful table (known finding C20-decoder-field-echo). *)
Definition logsites_safe_statement : Prop := forallb (site_ok false pk_exc_classes) log_sites = true.

Theorem logsites_safe_refuted :
  exists s, In s log_sites /\ observable (s_kind s) = true /\ site_ok false pk_exc_classes s = false.
Proof.
  assert (H : existsb (fun s => observable (s_kind s) && negb (site_ok false pk_exc_classes s)) log_sites = true)
    by (vm_compute; reflexivity).
  apply existsb_exists in H. destruct H as [s [Hin Hs]]. apply andb_true_iff in Hs. rewrite negb_true_iff in Hs.
  exists s. tauto.
Qed.
Print Assumptions logsites_safe_refuted.

(* ... the partial theorem excludes exactly the decoder's wire-field echo ... *)
Theorem logsites_safe_partial : forallb (site_ok true pk_exc_classes) log_sites = true.
Proof. vm_compute. reflexivity. Qed.
Print Assumptions logsites_safe_partial.

Lemma log_site_ok : forall s, In s log_sites -> site_ok true pk_exc_classes s = true.
Proof. apply forallb_forall, logsites_safe_partial. Qed.

(* ... which occurs at exactly the pinned sites, and every other site meets the full-strength claim.
   Proved by a cast (as is remainder_pinned): [vm_compute] would leave both lists, every character spelled
   out, in the proof term. *)
Theorem wire_echo_pinned : wire_sites_of log_sites = wire_echo_sites.
Proof. exact (eq_refl wire_echo_sites <: wire_sites_of log_sites = wire_echo_sites). Qed.
Print Assumptions wire_echo_pinned.

Theorem logsites_safe_outside_wire_echo : forall s,
  In s log_sites -> has_wire s = false -> site_ok false pk_exc_classes s = true.
Proof.
  intros s Hin Hw. rewrite (no_wire_full_strength pk_exc_classes s Hw). exact (log_site_ok s Hin).
Qed.
Print Assumptions logsites_safe_outside_wire_echo.

(* ... so no part of an observable site is a secret-bearing or unrecognised expression. *)
Theorem logsites_no_secret_part : forall s,
  In s log_sites -> observable (s_kind s) = true -> existsb (is_secretish true) (s_parts s) = false.
Proof.
  intros s Hin. exact (site_ok_no_secret_part true pk_exc_classes s (log_site_ok s Hin)).
Qed.
Print Assumptions logsites_no_secret_part.

(* The runtime remainder (third-party exception text) is exactly the hand-pinned list. *)
Theorem remainder_pinned : remainder_of pk_exc_classes log_sites = foreign_exc_remainder.
Proof. exact (eq_refl foreign_exc_remainder <: remainder_of pk_exc_classes log_sites = foreign_exc_remainder). Qed.
Print Assumptions remainder_pinned.

Theorem logsites_strict_outside_remainder : forall s,
  In s log_sites -> ~ In (s_file s, s_func s) foreign_exc_remainder -> site_ok_strict true pk_exc_classes s = true.
Proof. intros s H1 H2. apply (outside_remainder_strict pk_exc_classes log_sites s H1). rewrite remainder_pinned. exact H2. Qed.
Print Assumptions logsites_strict_outside_remainder.

(* Message model, all histories: every emission of a run (result message or INFO+ record) that comes
   from a site of the table with arguments inside their class languages renders to a secret-free text. *)
Theorem logs_secret_free : forall h : list event,
  forallb (wf_event pk_exc_classes log_sites) h = true ->
  Forall (fun e => exists t, event_text pk_exc_classes log_sites e = Some t /\ secret_free pk_exc_classes log_sites t) h.
Proof. exact (run_secret_free pk_exc_classes log_sites). Qed.
Print Assumptions logs_secret_free.

Definition is_message_site (s : site) : bool :=
  match s_kind s with KResultMsg => true | KRaise true => true | _ => false end.

Theorem messages_secret_free : forall h : list event,
  forallb (fun e => is_message_site (nth (ev_site e) log_sites dummy_site) && wf_event pk_exc_classes log_sites e) h = true ->
  Forall (fun e => exists t, event_text pk_exc_classes log_sites e = Some t /\ secret_free pk_exc_classes log_sites t) h.
Proof.
  intros h H. apply logs_secret_free. rewrite forallb_forall in *. intros e He.
  specialize (H e He). apply andb_true_iff in H. tauto.
Qed.
Print Assumptions messages_secret_free.

(* With logsites_safe_partial, an emission is well formed as soon as its arguments are in their languages. *)
Theorem emission_wf : forall e,
  (ev_site e < List.length log_sites)%nat ->
  observable (s_kind (nth (ev_site e) log_sites dummy_site)) = true ->
  (forall fs, to_frags true pk_exc_classes (s_parts (nth (ev_site e) log_sites dummy_site)) = Some fs -> args_ok fs (ev_args e) = true) ->
  wf_event pk_exc_classes log_sites e = true.
Proof. exact (table_safe_event_wf pk_exc_classes log_sites logsites_safe_partial). Qed.
Print Assumptions emission_wf.

(* render: the text is a concatenation of table literals and argument renderings. *)
Theorem render_is_concat : forall fs args t,
  render fs args = Some t -> exists ps, pieces fs args = Some ps /\ t = concat_str (map piece_text ps).
Proof.
  intros fs args t H. rewrite render_eq in H.
  destruct (pieces fs args) as [ps|]; [|discriminate]. injection H as <-. eauto.
Qed.
Print Assumptions render_is_concat.

(* render_no_secret, in the form that can be stated usefully: arguments of the closed classes (including
   the decoder's wire-field echo) cannot carry 24 hexadecimal digits in a row nor more than 200 characters. *)
Theorem render_no_secret_closed : forall c a,
  closed_class c = true -> arg_ok c a = true -> (max_run hexchars a < 24)%nat /\ (String.length a <= 200)%nat.
Proof. intros c a Hc H; destruct c; try discriminate Hc; exact (closed_text_bounds _ _ _ 200 H eq_refl). Qed.
Print Assumptions render_no_secret_closed.

(* Tie K: whatever the comparator accepts is secret free. *)
Theorem comparator_sound : forall c, check_case pk_exc_classes log_sites c = true -> secret_free pk_exc_classes log_sites (c_text c).
Proof. exact (check_case_sound pk_exc_classes log_sites). Qed.
Print Assumptions comparator_sound.

(* Non-vacuity: the hypotheses are satisfiable - the table facts on the real table, a well-formed history on
   the demo table of FragProofs.v. *)
Example table_is_large : (500 <? List.length log_sites)%nat = true.
Proof. vm_compute. reflexivity. Qed.
Example table_has_observable_sites_with_arguments :
  (100 <? List.length (filter (fun s => observable (s_kind s) &&
        existsb (fun p => match p with SLit _ => false | _ => true end) (s_parts s)) log_sites))%nat = true.
Proof. vm_compute. reflexivity. Qed.
Example table_has_debug_only_secrets :
  existsb (fun s => negb (observable (s_kind s)) && existsb (is_secretish true) (s_parts s)) log_sites = true.
Proof. vm_compute. reflexivity. Qed.
Example some_wf_history_exists :
  exists h, h <> [] /\ forallb (wf_event demo_pk demo_sites) h = true.
Proof. exists [mkEvent 1 ["SymmetricKey"; "7"]; mkEvent 0 ["abc"]]. split; [discriminate|vm_compute; reflexivity]. Qed.

(* Property C18: policies in force follow the policy files; the built-in policies are
   untouchable; invalid files are rejected as a whole.
   Models: Monitor/Monitor.v (scan_policies), Monitor/Spec.v (the property), Monitor/Parse.v (the policy file
   parser), Monitor/EngineSide.v (the engine's decision over the shared store, gen/EnginePolicy.v). *)
From Coq Require Import ZArith List Bool String.
From PK Require Import Monitor.AList Monitor.Monitor Monitor.Spec Monitor.Views Monitor.Refine Monitor.Wf Monitor.Broken Monitor.EngineSide.
From PK Require Import Monitor.Parse Monitor.ParseProofs Monitor.ParseCases Monitor.MonitorCases.
From PKGen Require Import PolicyNames EnginePolicy.
Import ListNotations.
Open Scope Z_scope.

(* For the released code (purge = false) and for the code with fixes/C18-stale-cache.diff
   (purge = true): on EVERY history of directory views (no side condition on the events), from
   any initial store: the reserved names keep exactly the definition the store had at start (or stay
   absent), and no file ever becomes their owner. *)
Theorem reserved_untouched : forall purge s h, Forall wf_fs h ->
  forall q, reserved q = true ->
    get q (st_store (run_gen purge s h)) = get q s /\ get q (st_map (run_gen purge s h)) = None.
Proof.
  intros purge s h Hh q Hq. destruct (run_tracked purge s h Hh) as (_ & H).
  specialize (H q). rewrite Hq in H. exact H.
Qed.
Print Assumptions reserved_untouched.

(* full strength: after every history the store is the specification's store *)
Definition scan_refines_spec_statement : Prop :=
  forall s h, Forall wf_fs h -> forall q, get q (st_store (run s h)) = spec_store (spec_run s h) q.

(* files 0 (a.json) and 1 (b.json), name 2 (p), name 3 (q), definitions 10, 11, 12:
   b defines p; a shadows p; b is rewritten without p; a is removed -> p is served from b's stale entry *)
Definition stale_witness : list fs_view :=
  [ [(1, (1, Some [(2, 10)]))];
    [(0, (2, Some [(2, 11)])); (1, (1, Some [(2, 10)]))];
    [(0, (2, Some [(2, 11)])); (1, (3, Some [(3, 12)]))];
    [(1, (3, Some [(3, 12)]))] ].

Theorem scan_refines_spec_refuted :
  exists s h q, Forall wf_fs h /\ get q (st_store (run s h)) <> spec_store (spec_run s h) q.
Proof.
  exists [], stale_witness, 2. split.
  - apply wf_histb_ok. vm_compute. reflexivity.
  - vm_compute. discriminate.
Qed.
Print Assumptions scan_refines_spec_refuted.

(* what the monitor answers on the witness: p -> 10 (b's old definition), the files say: no p *)
Example stale_witness_values :
  get 2 (st_store (run [] stale_witness)) = Some 10 /\ spec_store (spec_run [] stale_witness) 2 = None
  /\ hist_ok [] stale_witness = false.
Proof. vm_compute. repeat split. Qed.

(* every history whose loads contain no shadowed drop (Spec.shadowed_drop: a file is reloaded
   without a name it defined while a more recently loaded file also defines that name) *)
Theorem scan_refines_spec_partial : forall s h, Forall wf_fs h -> hist_ok s h = true ->
  forall q, get q (st_store (run s h)) = spec_store (spec_run s h) q.
Proof. exact (run_refines_spec false). Qed.
Print Assumptions scan_refines_spec_partial.

(* the code with fixes/C18-stale-cache.diff applied (model variant purge = true): full strength *)
Theorem scan_refines_spec_fixed : forall s h, Forall wf_fs h ->
  forall q, get q (st_store (run_gen true s h)) = spec_store (spec_run s h) q.
Proof. intros s h Hh. now apply (run_refines_spec true). Qed.
Print Assumptions scan_refines_spec_fixed.

(* whichever variant the source is today (gen/PolicyNames.v, regenerated on every run) *)
Theorem scan_refines_spec_current : forall s h, Forall wf_fs h ->
  monitor_purges_shadowed = true \/ hist_ok s h = true ->
  forall q, get q (st_store (run_gen monitor_purges_shadowed s h)) = spec_store (spec_run s h) q.
Proof. intros s h Hh Hok. apply run_refines_spec; [assumption | now apply orb_true_iff]. Qed.
Print Assumptions scan_refines_spec_current.

(* the hypotheses are satisfiable by a history with shadowing, restoring after a removal,
   restoring after the owner drops the name, a broken file and a reserved name in a file *)
Definition good_history : list fs_view :=
  [ [(0, (1, Some [(2, 10); (0, 13)]))];
    [(0, (1, Some [(2, 10); (0, 13)])); (1, (2, Some [(2, 11); (3, 12)]))];
    [(0, (1, Some [(2, 10); (0, 13)])); (1, (3, None))];
    [(0, (1, Some [(2, 10); (0, 13)])); (1, (4, Some [(3, 12)]))];
    [(0, (5, Some [(3, 14)])); (1, (4, Some [(3, 12)]))];
    [(1, (4, Some [(3, 12)]))] ].
Example scan_refines_spec_partial_nonvacuous :
  Forall wf_fs good_history /\ hist_ok [(0, 90); (1, 91)] good_history = true /\
  map (fun h => map (spec_store (spec_run [(0, 90); (1, 91)] (firstn h good_history))) [0; 1; 2; 3]) [1; 2; 3; 4; 5; 6]%nat =
  [ [Some 90; Some 91; Some 10; None];
    [Some 90; Some 91; Some 11; Some 12];
    [Some 90; Some 91; Some 11; Some 12];
    [Some 90; Some 91; Some 10; Some 12];
    [Some 90; Some 91; None; Some 14];
    [Some 90; Some 91; None; Some 12] ]%Z.
Proof. split; [apply wf_histb_ok; vm_compute; reflexivity | vm_compute; split; reflexivity]. Qed.

(* After any history, the next scan yields the same policies in force, owners and cache
   whether a file that is invalid is seen as changed (any mtime) or as untouched: it is
   rejected as a whole, and a valid file that became invalid keeps its old definitions. *)
Theorem broken_file_no_effect : forall purge s h fs fs', Forall wf_fs h -> wf_fs fs -> wf_fs fs' ->
  same_but_broken fs fs' ->
  let m := run_gen purge s h in
  forall q, get q (st_store (scan_gen purge fs m)) = get q (st_store (scan_gen purge fs' m)) /\
            get q (st_map (scan_gen purge fs m)) = get q (st_map (scan_gen purge fs' m)) /\
            get q (st_cache (scan_gen purge fs m)) = get q (st_cache (scan_gen purge fs' m)).
Proof.
  intros purge s h fs fs' Hh H1 H2 Hs m q.
  pose proof (broken_no_effect_scan purge fs fs' m (proj1 (run_tracked purge s h Hh)) H1 H2 Hs q) as E.
  unfold view_of in E. inversion E. auto.
Qed.
Print Assumptions broken_file_no_effect.

(* hypotheses satisfiable: b.json (valid before, mtime 2) is now invalid with mtime 9, versus invalid with mtime 2 (= unseen) *)
Example broken_file_no_effect_nonvacuous :
  let fs  := [(0, (1, Some [(2, 10); (0, 13)])); (1, (9, None))] in
  let fs' := [(0, (1, Some [(2, 10); (0, 13)])); (1, (2, None))] in
  wf_fs fs /\ wf_fs fs' /\ same_but_broken fs fs' /\
  map (fun q => get q (st_store (scan fs (run [(0, 90)] (firstn 2 good_history))))) [0; 2; 3] = [Some 90; Some 11; Some 12].
Proof.
  intros fs fs'. split; [|split; [|split; [split|]]].
  1, 2: apply wf_fsb_ok; vm_compute; reflexivity.
  - reflexivity.
  - intros g. destruct (Z.eq_dec g 1) as [->|H].
    + right. exists 9, 2. split; reflexivity.
    + left. apply Z.eqb_neq in H. unfold fs, fs'. simpl. now rewrite H.
  - vm_compute. reflexivity.
Qed.

(* on every history a non reserved name is absent from store, owner map and cache, or present
   in all three (eff = Some _): the state in which monitor.py l.120 meets None does not arise
   between scans *)
Theorem tracking_consistent : forall purge s h, Forall wf_fs h ->
  forall q, reserved q = false -> exists E, eff (view_of (run_gen purge s h) q) = Some E.
Proof.
  intros purge s h Hh q Hq. destruct (run_tracked purge s h Hh) as (_ & H).
  specialize (H q). now rewrite Hq in H.
Qed.
Print Assumptions tracking_consistent.

(* scan_policies walks the removed files and the names a reloaded file dropped as Python sets
   (hash order).  In every reachable state, removing two files in either order gives the same
   store entry, owner and cache stack for every name; two dropped names commute in any state.
   Neighbour swaps generate all orders, so the model's list order loses nothing. *)
Theorem removed_files_order_irrelevant : forall purge s h f1 f2 q, Forall wf_fs h ->
  let m := run_gen purge s h in
  view_of (remove_file f1 (remove_file f2 m)) q = view_of (remove_file f2 (remove_file f1 m)) q.
Proof.
  intros purge s h f1 f2 q Hh m. destruct (run_tracked purge s h Hh) as (Hw & H).
  apply remove_file_comm; [assumption|]. specialize (H q).
  destruct (reserved q); [right; apply H | now left].
Qed.
Print Assumptions removed_files_order_irrelevant.

Theorem dropped_names_order_irrelevant : forall f p p' m q, p <> p' ->
  let step := fun m p => restore_or_delete p (disassociate p f m) in
  view_of (step (step m p) p') q = view_of (step (step m p') p) q.
Proof.
  intros f p p' m q _ step. unfold step. rewrite !view_drop.
  destruct (q =? p), (q =? p'); reflexivity.
Qed.
Print Assumptions dropped_names_order_irrelevant.

(* "In force" is what the engine applies.  engine_decision is KmipEngine._is_allowed_by_operation_policy reading
   the SHARED store at request time (gen/EnginePolicy.v, emitted only when the source reads
   self._operation_policies.get(name) on every call and keeps nothing); spec_decision is the same decision over
   the specification's map.  For every event history - hence after every scan, each prefix being a history -
   every policy name, object owner, object type, operation, requester and group list: *)
Theorem engine_applies_what_files_say : forall dtab s h, Forall wf_fs h ->
  forall name owner ot op user groups,
    engine_decision dtab (st_store (run_gen true s h)) name owner ot op user groups =
    spec_decision dtab (spec_run s h) name owner ot op user groups.
Proof. intros dtab s h Hh. now apply (engine_follows_spec true). Qed.
Print Assumptions engine_applies_what_files_say.

(* the variant the source is today; for the released loop only without a shadowed drop *)
Theorem engine_applies_what_files_say_current : forall dtab s h, Forall wf_fs h ->
  monitor_purges_shadowed = true \/ hist_ok s h = true ->
  forall name owner ot op user groups,
    engine_decision dtab (st_store (run_gen monitor_purges_shadowed s h)) name owner ot op user groups =
    spec_decision dtab (spec_run s h) name owner ot op user groups.
Proof. intros dtab s h Hh Hok. apply engine_follows_spec; [assumption | now apply orb_true_iff]. Qed.
Print Assumptions engine_applies_what_files_say_current.

(* built-ins: decided by the initial store entry, whatever the files say *)
Theorem engine_builtins_untouched : forall purge dtab s h, Forall wf_fs h ->
  forall name, reserved name = true -> forall owner ot op user groups,
    engine_decision dtab (st_store (run_gen purge s h)) name owner ot op user groups =
    decision_of dtab (get name s) owner ot op user groups.
Proof.
  intros purge dtab s h Hh name Hn. unfold engine_decision.
  now destruct (reserved_untouched purge s h Hh name Hn) as [-> _].
Qed.
Print Assumptions engine_builtins_untouched.

(* a name no loaded present file defines grants to nobody *)
Theorem engine_undefined_name_grants_nobody : forall dtab s h, Forall wf_fs h ->
  forall name, reserved name = false -> definers (a_loaded (spec_run s h)) name = [] ->
  forall owner ot op user groups,
    engine_decision dtab (st_store (run_gen true s h)) name owner ot op user groups = false.
Proof.
  intros dtab s h Hh name Hn Hd. intros. rewrite engine_applies_what_files_say by assumption.
  unfold spec_decision, spec_store. rewrite Hn, Hd. apply decision_of_none.
Qed.
Print Assumptions engine_undefined_name_grants_nobody.

(* the decisions along good_history for name 2 (p): shadowed by b (owner only), restored from a (everybody)
   after b drops it, gone after a drops it; a group member is served by the groups section only *)
Definition sample_dtab (d : Z) : option parsed :=
  let sym perm := [("SYMMETRIC_KEY", [("GET", perm)])]%string in
  if d =? 10 then Some (Parsed (Some (sym "ALLOW_ALL"%string)) None)
  else if d =? 11 then Some (Parsed (Some (sym "ALLOW_OWNER"%string)) (Some [("g"%string, sym "ALLOW_ALL"%string)]))
  else if d =? 90 then Some (Parsed (Some (sym "ALLOW_OWNER"%string)) None)
  else None.
Example engine_decisions_along_good_history :
  let dec k user groups := engine_decision sample_dtab (st_store (run_gen true [(0, 90); (1, 91)] (firstn k good_history)))
                             2 "alice"%string "SYMMETRIC_KEY"%string "GET"%string user groups in
  map (fun k => (dec k "alice"%string None, dec k "bob"%string None, dec k "bob"%string (Some ["g"%string])))
      [0; 1; 2; 3; 4; 5; 6]%nat =
  [ (false, false, false); (true, true, false); (true, false, true); (true, false, true);
    (true, true, false); (false, false, false); (false, false, false) ].
Proof. vm_compute. reflexivity. Qed.

(* Whatever the file holds - not JSON, or any JSON value - and whatever the enumerations
   contain, read_policy_from_file returns a result or raises ValueError; the model has a
   third outcome (any other exception: AttributeError from .items()/.get() of a non-dict),
   and it is unreachable. *)
Theorem parser_total_valueerror : forall object_types operations permissions sections blob,
  (exists r, read_policy object_types operations permissions sections blob = Ok r) \/
  read_policy object_types operations permissions sections blob = ValueErr.
Proof.
  intros. pose proof (read_policy_no_crash object_types operations permissions sections blob) as H.
  destruct (read_policy object_types operations permissions sections blob) as [r| |];
    [left; eauto | now right | congruence].
Qed.
Print Assumptions parser_total_valueerror.

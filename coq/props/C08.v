(* C08 - batch results are complete and failed items leave no trace.
   Model: Batch/Generic.v (process_request / _process_batch, generic in the handler) and
   Batch/Store.v (store, per-batch database session, handlers); tied to
   kmip/services/server/engine.py by harness/c08.py on every run. *)
From Coq Require Import ZArith List Bool.
From PK Require Import Batch.Generic Batch.GenericProofs Batch.Store Batch.StoreProofs Batch.Session Batch.SessionProofs Batch.Order Batch.OrderCheck.
From PKGen Require Import BatchOrder.
Import ListNotations.
Open Scope Z_scope.

(* "The response contains one result per processed batch item, in request order, each
   echoing its operation and batch item ID." *)
Theorem results_prefix : forall st h its rs st',
    process st h its = (inr rs, st') ->
    (length rs <= length its)%nat /\
    forall i r, nth_error rs i = Some r ->
                exists it, nth_error its i = Some it /\ r_op r = it_op it /\ r_bid r = it_bid it.
Proof.
  intros st h its rs st' H.
  destruct (process_results_store _ _ _ _ _ H) as [_ [_ [s' [p' [Hr _]]]]].
  split; [exact (run_length _ _ _ _ _ _ _ _ _ _ _ Hr)|exact (run_nth _ _ _ _ _ _ _ _ _ _ _ Hr)].
Qed.
Print Assumptions results_prefix.

(* "Processing stops at the first failed item unless the client asked to continue." *)
Theorem stop_on_first_failure : forall st h its rs st',
    process st h its = (inr rs, st') ->
    if continues h then length rs = length its
    else (forallb r_ok rs = true /\ length rs = length its) \/
         (exists pre r, rs = pre ++ [r] /\ forallb r_ok pre = true /\ r_ok r = false /\ (length rs <= length its)%nat).
Proof.
  intros st h its rs st' H.
  destruct (process_results_store _ _ _ _ _ H) as [_ [_ [s' [p' [Hr _]]]]].
  exact (run_shape _ _ _ _ _ _ _ _ _ _ _ Hr).
Qed.
Print Assumptions stop_on_first_failure.

(* "The ID placeholder lets a later item address the object an earlier item of the same
   batch created": a successful creating item c (Create, Register, CreateKeyPair, DeriveKey)
   leaves in the placeholder an identifier u issued by this very item, of an object owned
   by the requester; after any items in between that are not creating items the placeholder
   still holds u, and an identifier-less item is processed exactly like the same item naming u. *)
Theorem placeholder_within_batch : forall h s p c s1 p1,
    creating (it_body c) = true -> handle h s p c = (OK, s1, p1) ->
    exists u, p1 = Some u /\ next (working s) <= u < next (working s1) /\
      (exists o, In o (objs (working s1)) /\ o_uid o = u /\ o_owner o = h_user h) /\
      forall mid it s2 p2,
        forallb (fun m => negb (creating (it_body m))) mid = true ->
        exec session body handle h s1 p1 mid = (s2, p2) ->
        creating (it_body it) = false ->
        p2 = Some u /\
        handle h s2 p2 it =
        handle h s2 p2 {| it_op := it_op it; it_bid := it_bid it; it_body := with_target u (it_body it) |}.
Proof.
  intros h s p c s1 p1 Hc Hh.
  destruct (creating_sets_placeholder _ _ _ _ _ _ Hc Hh) as [u [o [Hp1 [Hu [Hin [Huid [Hown _]]]]]]].
  exists u. split; [assumption|]. split; [assumption|]. split; [eauto|].
  intros mid it s2 p2 Hmid He Hit.
  assert (Hk := exec_non_creating_keeps_placeholder h mid s1 p1 Hmid).
  rewrite He in Hk. simpl in Hk. subst p2 p1.
  split; [reflexivity|]. unfold handle. cbn [it_body].
  now rewrite <- (placeholder_resolves h (working s2) u (it_body it) (Some u)).
Qed.
Print Assumptions placeholder_within_batch.

(* the identifier is one the request itself issued, of an object that is now published *)
Theorem placeholder_names_created_object : forall h s p it s' p',
    creating (it_body it) = true -> handle h s p it = (OK, s', p') ->
    exists u o, p' = Some u /\ next (working s) <= u < next (working s') /\
                In o (objs (working s')) /\ o_uid o = u /\ o_owner o = h_user h /\
                committed s' = working s'.
Proof. exact creating_sets_placeholder. Qed.
Print Assumptions placeholder_names_created_object.

(* the placeholder starts empty in every request (engine.py l.212): an identifier-less first item fails *)
Example placeholder_starts_empty :
  forall st h, check_header h = None ->
  process st h [Build_item 10 None (BGet None)] = (inr [{| r_op := 10; r_bid := None; r_ok := false; r_reason := R_NOT_FOUND |}], st).
Proof. intros st h Hh. unfold process, process_request. rewrite Hh. simpl. destruct (continues h); reflexivity. Qed.

(* "A batch item that reports failure leaves the stored objects exactly as they were":
   neither the committed store, nor the working state of the shared session, nor the
   placeholder change (so that no later commit in the same batch can publish anything
   the failed item did).  `clean s`: the session holds no unpublished change when the
   item starts - an invariant of the batch (session_never_dirty). *)
Theorem fail_no_trace : forall h s p it r s' p',
    clean s -> handle h s p it = (Fail r, s', p') -> s' = s /\ p' = p.
Proof. exact handle_fail_frame. Qed.
Print Assumptions fail_no_trace.

(* Two independent reasons.  (1) The batch loop rolls the session back after a failed
   item: the frame holds for ANY handler result, whatever it did to the working state before raising. *)
Theorem rollback_makes_fail_no_trace_structural : forall (r : hres) s pl reason s' p',
    clean s -> lift r s pl = (Fail reason, s', p') -> s' = s /\ p' = pl.
Proof. exact lift_fail_frame. Qed.
Print Assumptions rollback_makes_fail_no_trace_structural.

(* (2) The handlers never needed it: in each of them every `raise` precedes every mutation, so even
   without the rollback a failing item hands the session back as it got it -
   from any state, clean or not. *)
Theorem handlers_raise_before_they_mutate_thm : forall h s p it r s' p',
    lift_without_rollback (dispatch h (working s) p (it_body it)) s p = (Fail r, s', p') -> s' = s /\ p' = p.
Proof.
  unfold lift_without_rollback, lift. intros h [cm wk] p it r s' p' H. simpl in H.
  pose proof (dispatch_disciplined h wk p (it_body it)) as D.
  destruct (dispatch h wk p (it_body it)) as [w c pl|reason w]; [discriminate|].
  simpl in D. subst w. inversion H; auto.
Qed.
Print Assumptions handlers_raise_before_they_mutate_thm.

(* the session carries no unpublished change from one item to the next *)
Theorem session_never_dirty : forall st h its rs st',
    process st h its = (inr rs, st') ->
    exists s' p', run_batch h (continues h) (open_session st) None its = (rs, s', p') /\ working s' = st' /\ committed s' = st'.
Proof.
  intros st h its rs st' H.
  destruct (process_results_store _ _ _ _ _ H) as [_ [_ [s' [p' [Hr ->]]]]].
  exists s', p'. split; [exact Hr|]. split; [|reflexivity].
  exact (run_inv _ _ _ clean handle_clean _ _ _ _ _ _ _ _ Hr (open_clean st)).
Qed.
Print Assumptions session_never_dirty.

Theorem all_failed_no_trace : forall st h its rs st',
    process st h its = (inr rs, st') -> forallb (fun r => negb (r_ok r)) rs = true -> st' = st.
Proof. exact (process_all_failed_no_trace _ _ _ _ _ _ clean handle_fail_frame open_clean close_open). Qed.
Print Assumptions all_failed_no_trace.

(* "... and does not disturb later items": the same request without the failed items gets
   the same answers for the remaining items and ends in the same store. *)
Theorem later_items_undisturbed : forall st h its rs st',
    process st h its = (inr rs, st') ->
    process st h (succeeded body its rs) = (inr (filter r_ok rs), st').
Proof. exact (process_without_failed _ _ _ _ _ _ clean handle_clean handle_fail_frame open_clean). Qed.
Print Assumptions later_items_undisturbed.

(* The same for items that only read (Get, GetAttributes, Query, Locate, the cryptographic
   operations): the request reduced to its successful WRITING items gets the same answers
   for them and ends in the same store - a read leaves nothing a later commit could publish. *)
Theorem only_successful_writes_matter : forall st h its rs st',
    process st h its = (inr rs, st') ->
    process st h (kept body keep_writing its rs) = (inr (kept_results body keep_writing its rs), st').
Proof. exact (process_kept _ _ _ _ _ _ clean handle_clean open_clean keep_writing keep_writing_dropped_frame keep_writing_ok). Qed.
Print Assumptions only_successful_writes_matter.

Example only_successful_writes_matter_example :
  exists rs st', process demo_store demo_header
     [Build_item 10 (Some [1]) (BGet (Some 1)); Build_item 18 (Some [2]) (BActivate (Some 1));
      Build_item 1 (Some [3]) (BCreate true false true true true true [] [] None); Build_item 10 (Some [4]) (BGet None)] = (inr rs, st') /\
     map r_ok rs = [true; false; true; true] /\
     map (@it_op body) (kept body keep_writing
        [Build_item 10 (Some [1]) (BGet (Some 1)); Build_item 18 (Some [2]) (BActivate (Some 1));
         Build_item 1 (Some [3]) (BCreate true false true true true true [] [] None); Build_item 10 (Some [4]) (BGet None)] rs) = [1].
Proof. eexists. eexists. vm_compute. repeat split. Qed.

(* "Every item that was executed has its result reported - no operation takes effect
   without the client being told": (1) a request-level error leaves the store untouched,
   on every path that raises one; (2) otherwise the final store is the effect of exactly
   the items that have a result. *)
Theorem no_unreported_effect : forall st h its e st',
    process st h its = (inl e, st') -> st' = st.
Proof. exact request_error_no_effect_store. Qed.
Print Assumptions no_unreported_effect.

Theorem request_error_paths_no_effect : forall st h its,
    (ver_supported (h_ver h) = false -> process st h its = (inl EVersion, st)) /\
    (forall t, ver_supported (h_ver h) = true -> h_ts h = Some t -> h_now h < t -> process st h its = (inl EFuture, st)) /\
    (forall t, ver_supported (h_ver h) = true -> h_ts h = Some t -> t <= h_now h -> 60 <= h_now h - t ->
               process st h its = (inl EStale, st)) /\
    (ver_supported (h_ver h) = true -> ts_ok h = true -> async_on h = true -> process st h its = (inl EAsync, st)) /\
    (ver_supported (h_ver h) = true -> ts_ok h = true -> async_on h = false -> undo_on h = true ->
               process st h its = (inl EUndo, st)) /\
    (check_header h = None -> (1 < length its)%nat -> (exists it, In it its /\ it_bid it = None) ->
               process st h its = (inl ENoBid, st)).
Proof.
  intros st h its. unfold process, process_request. rewrite check_header_flat.
  repeat split.
  - intros ->. reflexivity.
  - intros t -> Ht Hlt. unfold ts_ok. rewrite Ht, (proj2 (Z.leb_gt _ _) Hlt), (proj2 (Z.ltb_lt _ _) Hlt). reflexivity.
  - intros t -> Ht Hle Hold. unfold ts_ok.
    rewrite Ht, (proj2 (Z.ltb_ge _ _) Hold), andb_false_r, (proj2 (Z.ltb_ge _ _) Hle). reflexivity.
  - intros -> -> ->. reflexivity.
  - intros -> -> -> ->. reflexivity.
  - intros Hh Hn [it [Hin Hb]]. rewrite Hh.
    unfold check_ids. rewrite (proj2 (Z.ltb_lt 1 _) (proj1 (Nat2Z.inj_lt 1 _) Hn)).
    rewrite (proj2 (existsb_exists _ its)); [reflexivity|]. exists it. now rewrite Hb.
Qed.
Print Assumptions request_error_paths_no_effect.

Theorem effects_are_reported : forall st h its rs st',
    process st h its = (inr rs, st') ->
    st' = committed (fst (exec session body handle h (open_session st) None (firstn (length rs) its))).
Proof.
  intros st h its rs st' H.
  destruct (process_results_store _ _ _ _ _ H) as [_ [_ [s' [p' [Hr ->]]]]].
  now rewrite (run_exec _ _ _ _ _ _ _ _ _ _ _ Hr).
Qed.
Print Assumptions effects_are_reported.

(* ---- the hypotheses are satisfiable by non-trivial inputs; the model can tell the difference ---- *)
Example mixed_batch_example :
  exists rs st', process demo_store demo_header demo_items = (inr rs, st') /\
                 map r_ok rs = [false; true] /\ option_map o_state (lookup 1 st') = Some S_DEACT /\
                 lookup 2 st' <> None /\ lookup 2 demo_store = None.
Proof. eexists. eexists. vm_compute. repeat split; discriminate. Qed.

Example request_error_example :
  process demo_store demo_header
          [Build_item 1 (Some [1]) (BCreate true false true true true true [] [] None);
           Build_item 24 None (BReadOnly (1,0))] = (inl ENoBid, demo_store).
Proof. reflexivity. Qed.

Example placeholder_example :
  exists rs st', process demo_store demo_header
     [Build_item 1 (Some [1]) (BCreate true false true true true true [7] [] None);
      Build_item 10 (Some [2]) (BGet (Some 99));
      Build_item 18 (Some [3]) (BActivate None)] = (inr rs, st') /\
     map r_ok rs = [true; false; true] /\ option_map o_state (lookup 2 st') = Some S_ACTIVE.
Proof. eexists. eexists. vm_compute. repeat split. Qed.

(* What the property is about, expressed in the model: were a guard placed after the mutation and
   the batch loop without rollback, a later commit would publish the
   failed item's change; with the rollback it does not. *)
Theorem late_guard_would_leave_trace :
  exists rs st', process_late_without_rollback demo_store demo_header demo_items = (inr rs, st') /\
                 map r_ok rs = [false; true] /\
                 option_map o_state (lookup 1 st') = Some S_ACTIVE /\
                 option_map o_state (lookup 1 demo_store) = Some S_DEACT.
Proof. eexists. eexists. vm_compute. repeat split. Qed.
Print Assumptions late_guard_would_leave_trace.

Theorem late_guard_is_rolled_back :
  exists rs st', process_late demo_store demo_header demo_items = (inr rs, st') /\
                 map r_ok rs = [false; true] /\ option_map o_state (lookup 1 st') = Some S_DEACT.
Proof. eexists. eexists. vm_compute. repeat split. Qed.

(* ---- the session layer (kmip/services/server/session.py): what the client is actually sent ----
   Full statement: an error answer means the store is as it was. *)
Definition no_unreported_effect_session_statement : Prop := session_no_unreported_effect_statement.

(* Refuted by the RESPONSE_TOO_LARGE substitution: a Create with Maximum Response Size 1 is
   executed, committed and answered with an error (known finding
   C08-response-too-large-after-effect; replayed on the real session on every run). *)
Theorem no_unreported_effect_session_refuted : ~ no_unreported_effect_session_statement.
Proof. exact session_no_unreported_effect_refuted_lemma. Qed.
Print Assumptions no_unreported_effect_session_refuted.

(* Partial: every error answer other than that substitution leaves the store untouched ... *)
Theorem no_unreported_effect_session_partial : forall st h max size its a st',
    session_answer st h max size its = (a, st') -> answer_is_error a = true -> a <> ATooLarge -> st' = st.
Proof. exact session_error_no_effect_partial. Qed.
Print Assumptions no_unreported_effect_session_partial.

(* ... the substitution happens exactly when the batch ran and its encoding exceeds the maximum ... *)
Theorem too_large_exactly_when : forall st h max size its st',
    session_answer st h max size its = (ATooLarge, st') <->
    (exists rs, process st h its = (inr rs, st')) /\ effective_max max < size.
Proof.
  unfold session_answer. intros st h max size its st'. split.
  - intros H. destruct (process st h its) as [[e|rs] st1] eqn:Hp; [discriminate|].
    destruct (effective_max max <? size) eqn:Hc; [|discriminate].
    inversion H; subst. split; [eauto|]. now apply Z.ltb_lt.
  - intros [[rs Hp] Hlt]. rewrite Hp.
    now rewrite (proj2 (Z.ltb_lt _ _) Hlt).
Qed.
Print Assumptions too_large_exactly_when.

(* ... and a response that fits reaches the client as the engine built it. *)
Theorem fitting_response_is_passed_on : forall st h max size its rs st',
    size <= effective_max max -> process st h its = (inr rs, st') ->
    session_answer st h max size its = (AResults rs, st').
Proof.
  unfold session_answer. intros st h max size its rs st' Hs Hp. rewrite Hp.
  now rewrite (proj2 (Z.ltb_ge _ _) Hs).
Qed.
Print Assumptions fitting_response_is_passed_on.

Example session_partial_hypotheses_satisfiable :
  exists a st', session_answer demo_store demo_header None 100
                  [Build_item 1 (Some [1]) (BCreate true false true true true true [] [] None);
                   Build_item 24 None (BReadOnly (1,0))] = (a, st') /\ answer_is_error a = true /\ a <> ATooLarge.
Proof. eexists. eexists. vm_compute. repeat split. discriminate. Qed.

Theorem request_runs_under_the_engine_lock : process_request_locked /\ placeholder_reset_comes_first /\ failed_items_are_rolled_back.
Proof. exact (conj process_request_is_locked (conj placeholder_reset_first batch_rolls_back)). Qed.
Print Assumptions request_runs_under_the_engine_lock.

(* the response header announces exactly the results the response carries (model side of the header check of K) *)
Theorem batch_count_is_number_of_results : forall st h its rs st',
    process st h its = (inr rs, st') -> response_batch_count rs = Z.of_nat (List.length rs) /\ (List.length rs <= List.length its)%nat.
Proof. intros st h its rs st' H. split; [reflexivity|]. exact (proj1 (results_prefix _ _ _ _ _ H)). Qed.
Print Assumptions batch_count_is_number_of_results.

(* ---- tie T: the same ordering claim on the code itself ----
   gen/BatchOrder.v is extracted from engine.py on every run (raise / mutation / commit
   events with the control structure of each of the 21 operation handlers and of the
   helpers they call).  No explicit `raise` is reachable while a loaded object or the
   session holds an uncommitted change, except for the residual pair listed in
   Batch/OrderCheck.v allowed_late_raises (a guard correlation the analysis does not follow;
   discharged dynamically by K);
   no handler ends with an uncommitted change; the placeholder is only set in a clean state. *)
Theorem every_raise_precedes_every_mutation_in_the_source :
  all_allowed (late_raises engine_methods operation_handlers) = true /\
  forallb (fun h => negb (ends_dirty_of engine_methods h)) operation_handlers = true /\
  List.length operation_handlers = 21%nat.
Proof.
  destruct (handlers_checked_sound _ _ handlers_checked) as [Hraise Hend].
  exact (conj Hraise (conj Hend handlers_counted)).
Qed.
Print Assumptions every_raise_precedes_every_mutation_in_the_source.

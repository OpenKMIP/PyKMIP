(* C02 - everything emitted is spec-conformant TTLV: primitives, structure writers, response envelope.
   Property theorems only; proofs live in PK.Base.SpecProofs, PK.Codec.SchemaProofs and
   PK.Codec.EnvelopeProofs. *)
From PK Require Import Base.Bytes Base.Prim Base.WfSpec Base.SpecProofs.
Open Scope Z_scope.

(* primitive encodings are byte-identical to the independent specification model *)
Theorem c02_enc_prim_spec : forall tag p bs,
  enc_prim tag p = Some bs -> spec_enc_rel tag (to_spec p) bs.
Proof. exact enc_prim_spec. Qed.
Print Assumptions c02_enc_prim_spec.

(* and they are well-formed TTLV items in the sense of the specification grammar *)
Theorem c02_enc_prim_wf : forall mem tag p bs,
  tag_ok tag = true -> wf_prim mem p = true -> enc_prim tag p = Some bs -> wf_item bs.
Proof. exact enc_prim_wf. Qed.
Print Assumptions c02_enc_prim_wf.

(* non-vacuity: a negative Integer and a 3-character TextString are encodable *)
Example c02_nonvacuous :
  exists a b, enc_prim 4325377 (VInt (-2)) = Some a /\ enc_prim 4325377 (VText [97; 98; 99]) = Some b
              /\ wf_prim (fun _ => true) (VInt (-2)) = true.
Proof. eexists; eexists; repeat split; vm_compute; reflexivity. Qed.

(* ---- structure writers: everything the schema interpreter emits is well-formed TTLV ---- *)
From PK Require Import Codec.Schema Codec.SchemaProofs.
Theorem c02_wr_wf : forall E v, env_ok E = true -> In v VERSIONS ->
  forall fuel tag k x bs, tag_ok tag = true -> wfv E v fuel k x = true ->
  wr E v fuel tag k x = Some bs -> wf_item bs.
Proof. exact wr_wf. Qed.
Print Assumptions c02_wr_wf.

(* ---- the response envelope, for every batch, continuation option and version ---- *)
From PK Require Import Codec.Envelope Codec.EnvelopeProofs.
From PKGen Require Import KmipErrors.

Theorem c02_envelope : forall version now continue items,
  forallb (fun x => outcome_ok (snd x)) items = true ->
  envelope_ok version (process version now continue items) = true.
Proof. exact envelope. Qed.
Print Assumptions c02_envelope.

Theorem c02_envelope_err : forall version now reason msg,
  envelope_ok version (build_error_response version now reason msg) = true.
Proof. exact envelope_err. Qed.
Print Assumptions c02_envelope_err.

(* the hypothesis outcome_ok is met by the code: regenerated tables (tie T) *)
Theorem c02_error_classes_fail : forallb class_ok kmip_error_classes = true.
Proof. exact error_classes_fail. Qed.
Theorem c02_raise_sites_nonempty : forallb site_ok kmip_raise_sites = true.
Proof. exact raise_sites_nonempty. Qed.
Print Assumptions c02_raise_sites_nonempty.

Example c02_envelope_nonvacuous :
  envelope_ok (1, 2) (process (1, 2) 5 false [(Some 1, None, OSuccess); (Some 10, None, OKmipError 1 1 "Could not locate object: 7")]) = true.
Proof. vm_compute. reflexivity. Qed.

(* C05 - stored objects come back exactly as stored (client, wire, engine, SQLite): property theorems.
   Model: theories/Persist/Model.v (tied to /repo by translate/gen_sqltypes.py (T) and harness/c05.py (K)). *)
From Coq Require Import ZArith List Bool.
From PKGen Require Import PieColumns.
From PK Require Import Persist.Model Persist.DecoratorProofs Persist.ChainProofs Persist.StoreProofs Persist.AttrProofs Persist.MakeProofs.
Import ListNotations.
Open Scope Z_scope.

Theorem sql_enum_roundtrip : forall o, enum_ok o -> sql_enum_in (sql_enum_out o) = o.
Proof. exact sql_enum_in_out. Qed.
Print Assumptions sql_enum_roundtrip.
Example sql_enum_roundtrip_sat : enum_ok (Some 2147483648) /\ enum_ok None. Proof. split; intro H; discriminate H. Qed.

(* the hypothesis is needed (a value equal to the sentinel would read back as NULL) and every stored enumeration meets it *)
Theorem sql_enum_sentinel_refuted : exists o, sql_enum_in (sql_enum_out o) <> o.
Proof. exists (Some enum_null). rewrite sql_enum_sentinel_collides. discriminate. Qed.
Theorem stored_enum_members_ok : forall cls ms v, In (cls, ms) stored_enum_members -> In v ms -> enum_ok (Some v).
Proof.
  intros cls ms v Hc Hv. pose proof stored_members_never_null as H. unfold members_nonnull in H.
  rewrite forallb_forall in H. specialize (H _ Hc). simpl in H. rewrite forallb_forall in H. specialize (H _ Hv).
  intro E. inversion E; subst. rewrite Z.eqb_refl in H. discriminate.
Qed.
Print Assumptions stored_enum_members_ok.

Theorem sql_mask_roundtrip : forall l, Forall (fun x => In x mask_bits) l ->
  sql_mask_in (sql_mask_out l) = canon_mask l /\ NoDup (canon_mask l) /\ (forall b, In b (canon_mask l) <-> In b l).
Proof.
  intros l H. split; [apply sql_mask_in_out; exact H|]. split; [apply canon_mask_nodup|].
  intro b. apply canon_mask_same_set. exact H.
Qed.
Print Assumptions sql_mask_roundtrip.
Ltac bits_forall := repeat (apply Forall_cons; [apply mem_z_In; vm_compute; reflexivity|]); apply Forall_nil.
Example sql_mask_roundtrip_sat : Forall (fun x => In x mask_bits) [8; 4; 8; 8388608] /\ sql_mask_in (sql_mask_out [8; 4; 8; 8388608]) = [4; 8; 8388608].
Proof. split; [bits_forall|vm_compute; reflexivity]. Qed.

Theorem sql_mask_int_roundtrip : forall z, mask_defined z -> sql_mask_out (sql_mask_in z) = z.
Proof. exact mask_int_roundtrip. Qed.
Print Assumptions sql_mask_int_roundtrip.

Definition kwd_roundtrip_statement : Prop := forall w k, kwd_flatten w = Ok k -> kwd_unflatten k = Ok w.

Definition kwd_witness : option kwd :=
  Some (mkKW 1 (Some (mkKI [55] (Some cp_none))) None None None (Some 1)).
Theorem kwd_roundtrip_refuted : exists w k, kwd_flatten w = Ok k /\ kwd_unflatten k <> Ok w.     (* known finding C05-kwd-empty-parameters *)
Proof. exists kwd_witness. eexists. split; [vm_compute; reflexivity|]. vm_compute. intro H. discriminate H. Qed.
Print Assumptions kwd_roundtrip_refuted.

Theorem kwd_roundtrip_partial : forall w, kwd_no_empty_params w -> exists k, kwd_flatten w = Ok k /\ kwd_unflatten k = Ok w.
Proof. intros w H. exists (kwd_cols w). split; [apply kwd_flatten_total|apply kwd_unflatten_cols; exact H]. Qed.
Print Assumptions kwd_roundtrip_partial.

Definition kwd_full : option kwd :=
  Some (mkKW 1 (Some (mkKI [55] (Some (mkCP (Some 1) None None None None None (Some false) (Some 0) None None None None None))))
             (Some (mkKI [] (Some (mkCP None None (Some 6) None None None None None (Some 16) None None None None)))) (Some []) None (Some 1)).
Example kwd_roundtrip_sat : kwd_no_empty_params kwd_full.
Proof. simpl. split; reflexivity. Qed.

(* values that are merely falsy survive (regression witness for fix 46c741e) *)
Theorem kwd_falsy_values_kept : kwd_no_empty_params kwd_falsy /\ exists k, kwd_flatten kwd_falsy = Ok k /\ kwd_unflatten k = Ok kwd_falsy.
Proof. assert (H : kwd_no_empty_params kwd_falsy) by (split; reflexivity). exact (conj H (kwd_roundtrip_partial _ H)). Qed.
Print Assumptions kwd_falsy_values_kept.

Theorem kwd_sql_roundtrip : forall k, kc_enums_ok k -> kc_map sql_enum_in (kc_map sql_enum_out k) = k.
Proof. exact kc_sql_roundtrip. Qed.
Print Assumptions kwd_sql_roundtrip.

(* ObjectFactory.convert, every object type *)
Theorem convert_roundtrip : forall s p, wf_secret s -> core_to_pie s = Ok p -> pie_to_core p = Ok s.
Proof. exact core_pie_core. Qed.
Print Assumptions convert_roundtrip.

Definition ex_key : secret := SKey CSym (mkKB KFT_RAW [1; 2] (Some 3) (Some 16) None).
Definition ex_wrapped : secret := SKey CPriv (mkKB KFT_PKCS_8 [] (Some 4) (Some 2048) kwd_full).
Definition ex_split : secret := SSplit (mkKB KFT_RAW [9] (Some 3) (Some 128) None) (mkSP 3 1 2 1 (Some 9223372036854775807)).
Example convert_roundtrip_sat :
  wf_secret ex_key /\ wf_secret ex_wrapped /\ wf_secret ex_split /\
  (exists p, core_to_pie ex_key = Ok p) /\ (exists p, core_to_pie ex_wrapped = Ok p) /\ (exists p, core_to_pie ex_split = Ok p).
Proof.
  split; [exact I|]. split; [apply kwd_roundtrip_sat|]. split; [exact I|].
  split; [eexists; vm_compute; reflexivity|]. split; eexists; vm_compute; reflexivity.
Qed.

Definition get_after_register_statement : Prop := forall v o n s l st st' u,
  store_ok st -> srv_register v o n s l st = Ok (st', u) -> srv_get st' u = Ok s.

Theorem get_after_register_refuted :                 (* known finding C05-kwd-empty-parameters, end to end *)
  exists v o n s l st' u, srv_register v o n s l store0 = Ok (st', u) /\ srv_get st' u <> Ok s.
Proof.
  exists (1, 4), [97], 1600000000, (SKey CSym (mkKB KFT_RAW [1; 2] (Some 3) (Some 16) kwd_witness)), []. eexists. eexists.
  split; [vm_compute; reflexivity|]. vm_compute. intro H. discriminate H.
Qed.
Print Assumptions get_after_register_refuted.

Theorem get_after_register_refuted_secret_data :     (* known finding C05-secret-data-key-block *)
  exists v o n s l st' u, srv_register v o n s l store0 = Ok (st', u) /\ srv_get st' u <> Ok s.
Proof.
  exists (1, 4), [97], 1600000000, (SSecret 1 (mkKB KFT_RAW [112; 119] None None None)), []. eexists. eexists.
  split; [vm_compute; reflexivity|]. vm_compute. intro H. discriminate H.
Qed.
Print Assumptions get_after_register_refuted_secret_data.

Theorem get_after_register_partial : forall v o n s l st st' u,
  store_ok st -> wf_secret s -> enums_ok s -> len_attr_consistent s l ->
  srv_register v o n s l st = Ok (st', u) -> srv_get st' u = Ok s.
Proof.
  intros v o n s l st st' u F Hwf He Hl H. exact (stored_get_later v o n s l st st' u [] F Hwf He Hl H (Forall_nil _)).
Qed.
Print Assumptions get_after_register_partial.

Definition ex_attrs : list tattr :=
  [mkTA (Some 0) (TName [110; 49] NT_TEXT); mkTA None (TMask 12); mkTA (Some 1) (TName [110; 50] NT_TEXT); mkTA (Some 0) (TGroup [103]);
   mkTA None (TSens true); mkTA (Some 0) (TAsi [97] [98]); mkTA None (TLen 2048)].
Example get_after_register_sat :
  store_ok store0 /\ wf_secret ex_wrapped /\ enums_ok ex_wrapped /\ len_attr_consistent ex_wrapped ex_attrs /\
  exists st' u, srv_register (1, 4) [97] 1600000000 ex_wrapped ex_attrs store0 = Ok (st', u).
Proof.
  split; [apply store0_ok|]. split; [apply kwd_roundtrip_sat|].
  split; [vm_compute; repeat split; intro H; discriminate H|]. split; [right; reflexivity|].
  eexists. eexists. vm_compute. reflexivity.
Qed.

(* at any later point of any history (other registrations, reads, activations - also of the object itself -, destructions of
   other objects) and across any number of engine restarts on the same file: by induction over histories *)
Theorem get_at_any_later_point : forall v o n s l st st' u h,
  store_ok st -> wf_secret s -> enums_ok s -> len_attr_consistent s l ->
  srv_register v o n s l st = Ok (st', u) ->
  Forall (not_destroying u) h ->
  srv_get (run st' h) u = Ok s.
Proof. exact stored_get_later. Qed.
Print Assumptions get_at_any_later_point.

Theorem any_reachable_store_ok : forall h, store_ok (run store0 h).
Proof. intro h. apply run_store_ok. apply store0_ok. Qed.
Print Assumptions any_reachable_store_ok.

Theorem restart_persists : forall st u, srv_get (step st HRestart) u = srv_get st u /\ (forall v, srv_attrs v (step st HRestart) u = srv_attrs v st u).
Proof. intros st u. split; reflexivity. Qed.
Print Assumptions restart_persists.

Example history_sat :
  Forall (not_destroying 1) [HRead; HRegister (2, 0) [98] 5 ex_key []; HActivate 1; HRestart; HDestroy 2; HRestart; HRead].
Proof. repeat constructor; simpl; discriminate. Qed.

(* GetAttributes = supplied + server-assigned *)
Definition attrs_after_register_statement : Prop := forall v o n s l st st' u v',
  store_ok st -> srv_register v o n s l st = Ok (st', u) ->
  get_attributes v' st' u = Ok (expected_attrs v' u n ST_PRE_ACTIVE s l).

Theorem attrs_after_register_refuted :               (* known finding C05-name-type-not-stored *)
  exists v o n s l st' u v', srv_register v o n s l store0 = Ok (st', u) /\
                             get_attributes v' st' u <> Ok (expected_attrs v' u n ST_PRE_ACTIVE s l).
Proof.
  exists (1, 2), [97], 1600000000, ex_key, [mkTA (Some 0) (TName [110] NT_URI)]. eexists. eexists. exists (1, 2).
  split; [vm_compute; reflexivity|]. vm_compute. intro H. discriminate H.
Qed.
Print Assumptions attrs_after_register_refuted.

(* every version, every object type, as the application receives it through the client *)
Theorem attrs_after_register_partial : forall v o n s l st st' u v',
  store_ok st -> enums_ok s -> len_attr_consistent s l -> names_untyped l -> mask_attr_defined l ->
  srv_register v o n s l st = Ok (st', u) ->
  get_attributes v' st' u = Ok (expected_attrs v' u n ST_PRE_ACTIVE s l).
Proof.
  intros v o n s l st st' u v' F He Hl Hn Hm H.
  exact (stored_attrs_later v o n s l st st' u [] v' F He Hl Hn Hm H (Forall_nil _)).
Qed.
Print Assumptions attrs_after_register_partial.

Example attrs_after_register_sat :
  enums_ok ex_wrapped /\ names_untyped ex_attrs /\ mask_attr_defined ex_attrs.
Proof.
  split; [vm_compute; repeat split; intro H; discriminate H|]. split; [repeat constructor|].
  exists [4; 8]; split; [bits_forall|reflexivity].
Qed.

(* the attribute set at any later point of any history without a Destroy of the object (other registrations, reads,
   activations, destructions of others, foreign creations) and across restarts: only State moves, and only by an Activate of
   this object; by induction over histories *)
Theorem attrs_at_any_later_point : forall v o n s l st st' u h v',
  store_ok st -> enums_ok s -> len_attr_consistent s l -> names_untyped l -> mask_attr_defined l ->
  srv_register v o n s l st = Ok (st', u) -> Forall (not_destroying u) h ->
  get_attributes v' (run st' h) u = Ok (expected_attrs v' u n (state_after u s h) s l).
Proof. exact stored_attrs_later. Qed.
Print Assumptions attrs_at_any_later_point.

Example state_after_sat :
  state_after 1 ex_key [HRead; HActivate 2; HRestart] = ST_PRE_ACTIVE /\ state_after 1 ex_key [HRestart; HActivate 1; HForeign] = ST_ACTIVE /\
  state_after 1 (SOpaque 2147483648 []) [HActivate 1] = ST_PRE_ACTIVE.
Proof. repeat split. Qed.

(* objects made from templates: Create, DeriveKey, CreateKeyPair
   The generated key material is an input; everything else comes from the template(s). *)
Theorem created_object_comes_from_template : forall k mat l s, made_secret k mat l = Ok s ->
  match k with
  | KDeriveSecret => secret_class s = CSecret /\ secret_alg s = None /\ secret_len s = None
  | _ => secret_class s = CSym /\ secret_alg s = sel_alg l /\ secret_len s = sel_len l
  end.
Proof.
  intros k mat l s H. apply made_secret_inv in H.
  destruct k; [destruct H as (a & n & -> & -> & ->)|destruct H as (a & n & -> & -> & ->)|subst s]; repeat split.
Qed.
Print Assumptions created_object_comes_from_template.

(* Create / DeriveKey: GetAttributes = the template's attributes + server-assigned, Get = the made object, at any later point of any
   history (registrations, creations, reads, activations, destructions of others) and across restarts *)
Theorem created_at_any_later_point : forall k v o n mat l st st' u h v',
  store_ok st -> alg_attr_ok l -> names_untyped (made_attrs k l) -> mask_attr_defined (made_attrs k l) ->
  srv_make k v o n mat l st = Ok (st', u) -> Forall (not_destroying u) h ->
  exists s, made_secret k mat l = Ok s /\
            get_attributes v' (run st' h) u = Ok (expected_attrs v' u n (state_after u s h) s (made_attrs k l)) /\
            srv_get (run st' h) u = Ok s.
Proof.
  intros k v o n mat l st st' u h v' F Ha Hn Hm H Nd.
  unfold srv_make in H. apply bind_inv in H as (s & M & R). exists s. split; [exact M|].
  destruct (made_secret_facts _ _ _ _ M Ha) as (He & Hw & Hl). split.
  - exact (stored_attrs_later v o n s (made_attrs k l) st st' u h v' F He Hl Hn Hm R Nd).
  - exact (stored_get_later v o n s (made_attrs k l) st st' u h F Hw He Hl R Nd).
Qed.
Print Assumptions created_at_any_later_point.

Definition ex_template : list tattr :=
  [mkTA None (TAlg 3); mkTA None (TLen 128); mkTA None (TMask 12); mkTA (Some 0) (TName [107] NT_TEXT); mkTA (Some 0) (TGroup [103]);
   mkTA (Some 1) (TGroup [104]); mkTA None (TSens true)].
Example created_sat :
  alg_attr_ok ex_template /\ names_untyped ex_template /\ exists st' u, srv_make KCreate (1, 4) [97] 5 [1; 2; 3; 4; 5; 6; 7; 8; 9; 10; 11; 12; 13; 14; 15; 16] ex_template store0 = Ok (st', u).
Proof. split; [intro H; discriminate H|]. split; [repeat constructor|]. eexists. eexists. vm_compute. reflexivity. Qed.

(* CreateKeyPair: each key reports the attributes of `resolve common own` - its own template's value of an attribute if it has one,
   else the common template's (KMIP 4.2) - plus the server-assigned ones; both keys, any later point, across restarts *)
Theorem key_pair_at_any_later_point : forall v o n fu mu fr mr lc lu lr st st' u1 u2 h v',
  store_ok st -> enum_ok (Some fu) -> enum_ok (Some fr) ->
  alg_attr_ok (resolve lc lu) -> alg_attr_ok (resolve lc lr) ->
  names_untyped (resolve lc lu) -> names_untyped (resolve lc lr) ->
  mask_attr_defined (resolve lc lu) -> mask_attr_defined (resolve lc lr) ->
  srv_make_pair v o n fu mu fr mr lc lu lr st = Ok (st', (u1, u2)) ->
  Forall (not_destroying u1) h -> Forall (not_destroying u2) h ->
  exists su sr,
    pair_secret CPub fu mu (resolve lc lu) = Ok su /\ pair_secret CPriv fr mr (resolve lc lr) = Ok sr /\
    get_attributes v' (run st' h) u1 = Ok (expected_attrs v' u1 n (state_after u1 su h) su (resolve lc lu)) /\
    get_attributes v' (run st' h) u2 = Ok (expected_attrs v' u2 n (state_after u2 sr h) sr (resolve lc lr)) /\
    srv_get (run st' h) u1 = Ok su /\ srv_get (run st' h) u2 = Ok sr.
Proof. exact pair_stored_later. Qed.
Print Assumptions key_pair_at_any_later_point.

Theorem key_pair_resolution_rule : forall a common own,
  of_attr a (resolve common own) = if has_attr a own then of_attr a own else of_attr a common.
Proof. exact resolve_rule. Qed.
Print Assumptions key_pair_resolution_rule.

(* the shape of seeds C05L / C06K: common {Name, Group, Length 2048}, public overrides the Name, private the Group, both the Length *)
Definition ex_common : list tattr := [mkTA (Some 0) (TName [99] NT_TEXT); mkTA (Some 0) (TGroup [102]); mkTA None (TAlg 4); mkTA None (TLen 2048); mkTA None (TMask 3)].
Definition ex_public : list tattr := [mkTA (Some 0) (TName [112] NT_TEXT); mkTA None (TLen 1024)].
Definition ex_private : list tattr := [mkTA (Some 0) (TGroup [113]); mkTA None (TLen 1024)].
Example key_pair_sat :
  sel_names (resolve ex_common ex_public) = [[112]] /\ sel_groups (resolve ex_common ex_public) = [[102]] /\
  sel_names (resolve ex_common ex_private) = [[99]] /\ sel_groups (resolve ex_common ex_private) = [[113]] /\
  sel_len (resolve ex_common ex_public) = Some 1024 /\ sel_len (resolve ex_common ex_private) = Some 1024 /\
  exists st' u, srv_make_pair (1, 2) [97] 5 KFT_PKCS_1 [1] KFT_PKCS_8 [2] ex_common ex_public ex_private store0 = Ok (st', u).
Proof. repeat split. eexists. eexists. vm_compute. reflexivity. Qed.

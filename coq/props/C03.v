(* C03 - access control: nothing happens to an object without a policy grant.
   The property theorems; each is a corollary of the lemmas in PK.Policy.{PolicyProofs,AccessProofs,HandlerSpecProofs,
   DeniedLikeMissing,PolicyFileProofs}: allowed_iff_table (the decision), step_item_cases (one step), evolves (histories). *)
From Coq Require Import ZArith List Bool String.
From PK Require Import Policy.Policy Policy.PolicyProofs Policy.AccessTypes Policy.Access Policy.AccessProofs
                       Policy.HandlerSpec Policy.HandlerSpecProofs Policy.DeniedLikeMissing
                       Policy.PolicyFile Policy.PolicyFileProofs.
From PKGen Require Import HandlerAccessOps DefaultPolicies.
Import ListNotations.
Open Scope Z_scope.
Open Scope string_scope.


(* Whatever the engine allows is granted by the policy in the sense of the property text (the "only if" the
   property states), for every requester: a group named "" is a group like any other. *)
Theorem decision_sound : forall P pn id owner ot op,
  allowed_by_policy P pn id owner ot op = true -> granted_spec P pn id owner ot op.
Proof. exact allowed_granted. Qed.
Print Assumptions decision_sound.

Example decision_sound_nonvacuous :
  allowed_by_policy [("p", {| preset := None; groups := Some [("B", [(2, [(10, AllowAll)])])] |})] "p"
                    {| id_user := Some "bob"; id_groups := Some ["A"; "B"] |} (Some "alice") 2 10 = true.
Proof. vm_compute. reflexivity. Qed.

(* a requester whose only group is "" gets no section, not the preset: denied (finding C03-empty-group-name) *)
Theorem empty_group_name_denied : allowed_by_policy f11_policies "p" f11_identity (Some "alice") 2 10 = false.
Proof. vm_compute. reflexivity. Qed.
Print Assumptions empty_group_name_denied.

(* exact characterisation: allowed iff the policy exists and a section the engine consults for the
   requester (the preset without group information; with it, the group section of one of the requester's groups)
   has an entry for the object type and the operation that is AllowAll, or
   AllowOwner with requester = owner *)
Theorem decision_table : forall P pn id owner ot op,
  allowed_by_policy P pn id owner ot op = true <-> table_spec P pn id owner ot op.
Proof. exact allowed_iff_table. Qed.
Print Assumptions decision_table.

(* without group information the decision is exactly the specification (both directions) *)
Theorem no_groups_exact : forall P pn u owner ot op,
  allowed_by_policy P pn {| id_user := u; id_groups := None |} owner ot op = true
  <-> granted_spec P pn {| id_user := u; id_groups := None |} owner ot op.
Proof.
  intros. split; [apply allowed_granted|].
  intros [b [Eb [s [Hc Hg]]]]. apply allowed_iff_table. exists b, s. auto.
Qed.
Print Assumptions no_groups_exact.

(* default deny, for every kind of missing entry *)
Theorem default_deny :
  (* missing policy *)
  (forall P pn id owner ot op, slookup pn P = None -> allowed_by_policy P pn id owner ot op = false) /\
  (* no group information and no preset section *)
  (forall P pn b u owner ot op, slookup pn P = Some b -> preset b = None ->
     allowed_by_policy P pn {| id_user := u; id_groups := None |} owner ot op = false) /\
  (* group information and no groups section (this is also the restrictive quirk F10) *)
  (forall P pn b id gs owner ot op, slookup pn P = Some b -> id_groups id = Some gs ->
     (groups b = None \/ groups b = Some []) -> allowed_by_policy P pn id owner ot op = false) /\
  (* no entry for any of the requester's groups *)
  (forall P pn b id gs gm owner ot op, slookup pn P = Some b -> id_groups id = Some gs ->
     groups b = Some gm -> (forall g, In g gs -> slookup g gm = None) ->
     allowed_by_policy P pn id owner ot op = false) /\
  (* empty group list *)
  (forall P pn u owner ot op,
     allowed_by_policy P pn {| id_user := u; id_groups := Some [] |} owner ot op = false) /\
  (* every section lacks the object type, or the operation, or holds DisallowAll / an unknown value /
     AllowOwner for somebody else *)
  (forall P pn b id owner ot op, slookup pn P = Some b ->
     (forall s, preset b = Some s -> section_silent s (id_user id) owner ot op) ->
     (forall gm g s, groups b = Some gm -> slookup g gm = Some s -> section_silent s (id_user id) owner ot op) ->
     allowed_by_policy P pn id owner ot op = false).
Proof.
  split; [|split; [|split; [|split; [|split]]]].
  - intros P pn id owner ot op Eb. apply not_true_iff_false. rewrite allowed_iff_table. intros [b [_ [Eb' _]]]. congruence.
  - intros P pn b u owner ot op Eb Ep. apply (denied_unless_consulted P pn b); [exact Eb|].
    intros s Hc. unfold consulted in Hc. simpl in Hc. congruence.
  - intros P pn b id gs owner ot op Eb Eg Hn. apply (denied_unless_consulted P pn b); [exact Eb|].
    unfold consulted. rewrite Eg. intros s [g [_ [gm [Egm Es]]]].
    destruct Hn as [Hn|Hn]; [congruence|]. assert (gm = []) by congruence. subst. discriminate.
  - intros P pn b id gs gm owner ot op Eb Eg Egm Hnone. apply (denied_unless_consulted P pn b); [exact Eb|].
    unfold consulted. rewrite Eg. intros s [g [Hin [gm' [Egm' Es]]]].
    assert (gm' = gm) by congruence. subst. rewrite (Hnone g Hin) in Es. discriminate.
  - reflexivity.
  - intros P pn b id owner ot op Eb Hp Hg. apply (denied_unless_consulted P pn b); [exact Eb|].
    intros s Hc. apply silent_not_grants. destruct (consulted_cases _ _ _ Hc) as [H|[gm [g [Egm Es]]]]; eauto.
Qed.
Print Assumptions default_deny.

(* with group information the most permissive applicable group section decides:
   allowed iff the section of at least ONE of the requester's groups grants *)
Theorem most_permissive_group : forall P pn u gs owner ot op,
  allowed_by_policy P pn {| id_user := u; id_groups := Some gs |} owner ot op = true
  <-> exists g, In g gs /\ group_section_grants P pn g u owner ot op.
Proof.
  intros P pn u gs owner ot op. rewrite allowed_iff_table. unfold table_spec, group_section_grants. simpl. split.
  - intros [b [s [Eb [[g [Hin [gm [Egm Es]]]] Hg]]]]. exists g. split; [exact Hin|]. exists b, gm, s. auto.
  - intros [g [Hin [b [gm [s [Eb [Egm [Es Hg]]]]]]]]. exists b, s. split; [exact Eb|]. split; [|exact Hg].
    exists g. split; [exact Hin|]. exists gm. auto.
Qed.
Print Assumptions most_permissive_group.

Theorem more_groups_never_less : forall P pn u gs gs' owner ot op,
  incl gs gs' ->
  allowed_by_policy P pn {| id_user := u; id_groups := Some gs |} owner ot op = true ->
  allowed_by_policy P pn {| id_user := u; id_groups := Some gs' |} owner ot op = true.
Proof.
  intros P pn u gs gs' owner ot op Hi. rewrite !most_permissive_group.
  intros [g [Hin H]]. exists g. auto.
Qed.
Print Assumptions more_groups_never_less.

(* 'allow owner' reaches only the owner *)
Theorem allowed_implies_all_or_owner : forall P pn id owner ot op,
  allowed_by_policy P pn id owner ot op = true ->
  id_user id = owner \/
  exists b s om, slookup pn P = Some b /\ zlookup ot s = Some om /\ zlookup op om = Some AllowAll /\
                 (preset b = Some s \/ exists gm g, groups b = Some gm /\ slookup g gm = Some s).
Proof.
  intros P pn id owner ot op H. apply allowed_iff_table in H.
  destruct H as [b [s [Eb [Hc [om [p [Eo [Ep [->|[-> Hu]]]]]]]]]]; [right|left; exact Hu].
  exists b, s, om. repeat split; auto. exact (consulted_cases _ _ _ Hc).
Qed.
Print Assumptions allowed_implies_all_or_owner.

(* Recorded, not a finding (DESIGN F10): the converse of soundness fails in the RESTRICTIVE direction -
   group information + a policy with only a preset section is denied although the property text (and
   docs/source/server.rst) let the preset decide.  The property is an "only if"; nothing ungranted happens. *)
Theorem converse_counterexample : exists P pn id owner ot op,
  granted_spec P pn id owner ot op /\ allowed_by_policy P pn id owner ot op = false.
Proof.
  exists f10_policies, "default", {| id_user := Some "alice"; id_groups := Some ["A"] |}, (Some "alice"), 2, 10.
  split; [|vm_compute; reflexivity].
  eexists. split; [vm_compute; reflexivity|]. simpl. right. split; [left; reflexivity|].
  eexists. split; [reflexivity|]. exists [(10, AllowOwner)], AllowOwner.
  split; [reflexivity|]. split; [reflexivity|]. right. auto.
Qed.
Print Assumptions converse_counterexample.

(* the built-in 'default' policy (generated from kmip/core/policy.py): symmetric keys, private keys,
   split keys and secret data are for their owner only, whatever the operation *)
Theorem builtin_default_owner_only : forall id owner ot op,
  In ot owner_only_types ->
  allowed_by_policy default_policies "default" id owner ot op = true -> id_user id = owner.
Proof. exact HandlerSpecProofs.builtin_default_owner_only. Qed.
Print Assumptions builtin_default_owner_only.


(* User policies reach the engine through kmip.core.policy.read_policy_from_file.  [load_document] is what the
   loader builds (it drops empty sections and empty bodies and accepts the legacy layout), [document_meaning]
   what the document says; the engine's policy store is the built-ins updated with the loaded policies.
   The engine decides on the loaded store exactly as on the document's meaning ... *)
Theorem loading_preserves_decisions : forall base d pn id owner ot op,
  allowed_by_policy (overlay base (load_document d)) pn id owner ot op
  = allowed_by_policy (overlay base (document_meaning d)) pn id owner ot op.
Proof. intros. apply allowed_ext. intro g. apply document_load_eq_meaning. Qed.
Print Assumptions loading_preserves_decisions.

(* ... hence whatever it allows is granted by the DOCUMENT *)
Theorem loaded_file_sound : forall base d pn id owner ot op,
  allowed_by_policy (overlay base (load_document d)) pn id owner ot op = true ->
  granted_spec (overlay base (document_meaning d)) pn id owner ot op.
Proof.
  intros base d pn id owner ot op H. rewrite loading_preserves_decisions in H. now apply allowed_granted.
Qed.
Print Assumptions loaded_file_sound.

(* The policy store is fed by the directory monitor.  If every entry of the store is a built-in policy or what the
   loader builds from a document that is on disk NOW ([from_disk]; checked by Coq on the observed store after every
   scan of the monitor histories), then whatever the engine allows is granted by the built-in policy of that name or by
   one of the documents on disk - in particular a policy that no file defines any more grants to nobody. *)
Theorem store_from_disk_sound : forall builtin docs store pn id owner ot op,
  from_disk builtin docs store ->
  allowed_by_policy store pn id owner ot op = true ->
  granted_spec builtin pn id owner ot op \/
  exists d, In d docs /\ granted_spec (document_meaning d) pn id owner ot op.
Proof.
  intros builtin docs store pn id owner ot op Hfd H.
  destruct (allowed_granted _ _ _ _ _ _ H) as [b [Eb G]].
  destruct (Hfd _ _ Eb) as [Hb|[d [Hin Hd]]].
  - left. exists b. auto.
  - right. exists d. split; [exact Hin|]. apply allowed_granted.
    pose proof (loading_preserves_decisions [] d pn id owner ot op) as L. unfold overlay in L.
    rewrite !app_nil_r in L. rewrite <- L, <- H. apply allowed_lookup_only. congruence.
Qed.
Print Assumptions store_from_disk_sound.

Example loading_nonvacuous :
  let d := [("p", DSections (Some []) (Some [("G", [(2, [(10, AllowAll)])])])); ("q", DLegacy [(1, [(8, AllowOwner)])]);
            ("e", DSections None None)] in
  load_document d = [("p", {| preset := None; groups := Some [("G", [(2, [(10, AllowAll)])])] |});
                     ("q", {| preset := Some [(1, [(8, AllowOwner)])]; groups := None |})] /\
  allowed_by_policy (overlay default_policies (load_document d)) "p"
                    {| id_user := Some "bob"; id_groups := Some ["G"] |} (Some "alice") 2 10 = true.
Proof. split; vm_compute; reflexivity. Qed.


(* every handler reaches stored objects only through the choke points, with the Operation constant
   and the identifier the property demands (generated table = hand-written specification) *)
Theorem every_access_is_checked :
  handler_access_ops = spec_handlers /\
  dispatch = map (fun p => (op_named (fst p), snd p)) spec_dispatch /\
  (forall op g, In (op, g) governing_table ->
     exists h rest, handler_of op = Some h /\ h_sites h = SLoad UPrimary GNone g :: rest).
Proof. split; [vm_compute; reflexivity|]. split; [vm_compute; reflexivity|exact governed_primary]. Qed.
Print Assumptions every_access_is_checked.

(* A request that addresses (as primary object, wrapping key, derivation base or through the ID
   placeholder) an object for which the policy does not allow the operation the handler checks
   fails, changes neither the store nor the ID placeholder, and is not answered as "passed". *)
Theorem no_effect_without_grant : forall P id s ph r out st',
  step_item P id (s, ph) r = (out, st') ->
  forall o op, addressed r ph s o op -> allowed_obj P id op o = false ->
  st' = (s, ph) /\ passed out = false /\ is_failure out = true.
Proof.
  intros P id s ph r out st' Hstep o op Ha Hden.
  destruct (step_item_cases _ _ _ _ _ _ _ Hstep) as [[Hp [He _]]|[h [ld [Hh [Hr _]]]]].
  - auto using not_passed_failure.
  - rewrite (loads_granted _ _ _ _ _ _ _ Hh Hr _ _ Ha) in Hden. discriminate.
Qed.
Print Assumptions no_effect_without_grant.

Definition ex_store : store :=
  {| objs := [ {| o_uid := "1"; o_type := 2; o_owner := Some "alice"; o_pol := "default"; o_content := [("state", "pre-active")] |};
               {| o_uid := "2"; o_type := 1; o_owner := Some "alice"; o_pol := "default"; o_content := [("state", "pre-active")] |} ];
     dead := [] |}.
Definition ex_bob : identity := {| id_user := Some "bob"; id_groups := None |}.
Definition ex_req (op : Z) (u : option string) : request :=
  {| r_op := op; r_uid := u; r_uids := []; r_each_ok := []; r_wrap := None; r_pre_ok := true; r_post_ok := true;
     r_match := None; r_upd := None; r_new := [] |}.

(* bob asks for alice's symmetric key under the built-in default policy: refused with the not-found text *)
Example no_effect_without_grant_nonvacuous :
  step_item default_policies ex_bob (ex_store, None) (ex_req 10 (Some "1"))
  = (ODenied "Could not locate object: 1", (ex_store, None)) /\
  step_item default_policies ex_bob (ex_store, None) (ex_req 10 (Some "7"))
  = (ONotFound "Could not locate object: 7", (ex_store, None)) /\
  fst (step_item default_policies ex_bob (ex_store, None) (ex_req 10 (Some "2"))) = OSuccess [].
Proof. repeat split; vm_compute; reflexivity. Qed.

(* the exact answer for the operations that address a primary object *)
Theorem governed_denial : forall P id s ph r g u o,
  In (r_op r, g) governing_table -> r_pre_ok r = true ->
  resolve_primary r ph = Some u -> find_obj u (objs s) = Some o ->
  allowed_obj P id g o = false ->
  step_item P id (s, ph) r = (ODenied (render1 notfound_format u), (s, ph)).
Proof. exact HandlerSpecProofs.governed_denial. Qed.
Print Assumptions governed_denial.

(* the text of the permission error is the text for an identifier that does not exist
   (both formats are extracted from engine.py on every run) *)
Theorem denial_text_eq_notfound : forall u, render1 denied_format u = render1 notfound_format u.
Proof. reflexivity. Qed.
Print Assumptions denial_text_eq_notfound.

(* a denied primary object is answered like a missing one: same text, state unchanged in both runs *)
Theorem denied_like_missing_primary : forall P id s s0 ph r h op rest u o,
  handler_of (r_op r) = Some h -> h_sites h = SLoad UPrimary GNone op :: rest -> r_pre_ok r = true ->
  resolve_primary r ph = Some u ->
  find_obj u (objs s) = Some o -> allowed_obj P id op o = false ->
  find_obj u (objs s0) = None ->
  out_text (fst (step_item P id (s, ph) r)) = out_text (fst (step_item P id (s0, ph) r)) /\
  snd (step_item P id (s, ph) r) = (s, ph) /\ snd (step_item P id (s0, ph) r) = (s0, ph).
Proof.
  intros P id s s0 ph r h op rest u o Hh Hs Hpre Hres Hf Hden Hf0.
  rewrite (first_site_refusal P id s ph r h op rest u (ODenied (render1 denied_format u)) Hh Hs Hpre Hres),
          (first_site_refusal P id s0 ph r h op rest u (ONotFound (render1 notfound_format u)) Hh Hs Hpre Hres).
  - simpl. rewrite formats_equal. auto.
  - simpl. now rewrite Hf0.
  - simpl. now rewrite Hf, Hden.
Qed.
Print Assumptions denied_like_missing_primary.

(* the same at EVERY load site at once (primary object, wrapping key of Get, bases of DeriveKey, ID
   placeholder): as far as refusal texts go, the request is answered as if the objects the requester has
   no grant for did not exist; PermissionDenied vs ItemNotFound is the only difference.  (That nothing
   changes in the first run is no_effect_without_grant.) *)
Theorem denied_like_missing : forall P id s ph r o,
  wf_store s -> In o (objs s) ->
  (forall op, addressed r ph s o op -> allowed_obj P id op o = false) ->
  out_text (fst (step_item P id (s, ph) r)) = out_text (fst (step_item P id (without o s, ph) r)).
Proof.
  intros P id s ph r o [Hnd _] Hin Hden. apply refusal_text_rel. intros h src g op u Hh Hs Hu.
  apply load1_rel; auto. intros ->. apply Hden. exists h, src, g, (o_uid o). auto using find_obj_nodup.
Qed.
Print Assumptions denied_like_missing.

(* The headline: an operation takes effect on, or is answered as passed for, an object only if the object's
   policy grants the operation to the requester - for every object the request addresses (primary object,
   wrapping key, derivation bases, ID placeholder target). *)
Theorem effect_only_if_granted : forall P id s ph r out s' ph',
  step_item P id (s, ph) r = (out, (s', ph')) ->
  s' <> s \/ ph' <> ph \/ passed out = true ->
  forall o op, addressed r ph s o op -> granted_spec P (o_pol o) id (o_owner o) (o_type o) op.
Proof.
  intros P id s ph r out s' ph' Hstep Heff o op Ha.
  destruct (allowed_obj P id op o) eqn:E; [now apply allowed_granted|].
  destruct (no_effect_without_grant _ _ _ _ _ _ _ Hstep _ _ Ha E) as [He [Hp _]].
  inversion He; subst. destruct Heff as [H|[H|H]]; [now elim H|now elim H|congruence].
Qed.
Print Assumptions effect_only_if_granted.

(* which objects are addressed, per kind of site *)
Theorem addressed_objects :
  (forall r ph s g u o, In (r_op r, g) governing_table -> resolve_primary r ph = Some u ->
     find_obj u (objs s) = Some o -> addressed r ph s o g) /\
  (forall r ph s u o, r_op r = GET -> r_wrap r = Some u -> find_obj u (objs s) = Some o -> addressed r ph s o GET) /\
  (forall r ph s u o, r_op r = op_named "DERIVE_KEY" -> In u (r_uids r) -> find_obj u (objs s) = Some o ->
     addressed r ph s o GET).
Proof.
  split; [|split].
  - intros r ph s g u o Hin Hres Hf. destruct (governed_primary _ _ Hin) as [h [rest [Hh Hs]]].
    exists h, UPrimary, GNone, u. rewrite Hs. simpl. rewrite Hres. repeat split; auto.
  - intros r ph s u o Hop Hw Hf. destruct get_sites as [h [Hh Hs]]. rewrite <- Hop in Hh.
    exists h, UWrapKey, (GMaskNotFound "Wrapping key does not exist."), u. rewrite Hs. simpl. rewrite Hw. repeat split; simpl; auto.
  - intros r ph s u o Hop Hin Hf. destruct derive_key_sites as [h [Hh Hs]]. rewrite <- Hop in Hh.
    exists h, UEach, GNone, u. rewrite Hs. simpl. repeat split; auto using in_map.
Qed.
Print Assumptions addressed_objects.

(* a record that is gone or rewritten after a step was addressed by the request under a grant; all others stay *)
Theorem only_addressed_objects_change : forall P id s ph r out s' ph',
  wf_store s ->
  step_item P id (s, ph) r = (out, (s', ph')) ->
  forall o, In o (objs s) ->
  In o (objs s') \/ exists op, addressed r ph s o op /\ allowed_obj P id op o = true.
Proof.
  intros P id s ph r out s' ph' Hwf Hstep o Hin.
  destruct (unchanged_or_granted_write _ _ _ _ _ _ _ _ Hwf Hstep o Hin) as [H|[_ [_ H]]]; auto.
Qed.
Print Assumptions only_addressed_objects_change.

(* THE FRAME over the whole attribute state.  Every object carries an abstract content (one (kind, value id) pair
   per table of the data store that has rows for it; a value belongs to ONE object).  After any request item, on any
   store, an object is still there with ALL its columns and its WHOLE content unchanged - unless the item succeeded, is an
   attribute-writing operation (Activate, Revoke, Modify/Set/DeleteAttribute) or the deleting one (Destroy), and the
   object is one the item loaded under a grant.  In particular a granted request on the requester's own object leaves
   every other object's attributes alone, and ... *)
Theorem content_frame : forall P id s ph r out s' ph',
  wf_store s ->
  step_item P id (s, ph) r = (out, (s', ph')) ->
  forall o, In o (objs s) ->
  In o (objs s') \/
  (is_failure out = false /\
   (In (r_op r) mutating_ops \/ exists h, handler_of (r_op r) = Some h /\ (0 < h_direct_queries h)%nat) /\
   exists op, addressed r ph s o op /\ allowed_obj P id op o = true).
Proof. exact unchanged_or_granted_write. Qed.
Print Assumptions content_frame.

(* ... a denied or otherwise failed item changes no object's content (nor anything else), and neither does a request
   all of whose items fail *)
Theorem failure_changes_nothing : forall P id s ph r out st',
  step_item P id (s, ph) r = (out, st') -> is_failure out = true -> st' = (s, ph).
Proof. exact failed_step_is_identity. Qed.
Print Assumptions failure_changes_nothing.

Theorem failed_items_change_nothing : forall P id cont rs s ph outs st',
  run_items P id cont (s, ph) rs = (outs, st') -> forallb is_failure outs = true -> st' = (s, ph).
Proof. exact all_failed_is_identity. Qed.
Print Assumptions failed_items_change_nothing.

Theorem mutating_ops_named :
  mutating_ops = map op_named ["ACTIVATE"; "REVOKE"; "MODIFY_ATTRIBUTE"; "DELETE_ATTRIBUTE"; "SET_ATTRIBUTE"].
Proof. vm_compute. reflexivity. Qed.
Print Assumptions mutating_ops_named.

(* bob activates his own key 3: its content is rewritten, alice's rows keep theirs; bob's attempt on alice's key 1
   is refused and changes nothing *)
Example content_frame_nonvacuous :
  let s3 := {| objs := objs ex_store ++ [{| o_uid := "3"; o_type := 2; o_owner := Some "bob"; o_pol := "default";
                                            o_content := [("state", "pre-active")] |}]; dead := [] |} in
  let act u c := {| r_op := 18; r_uid := Some u; r_uids := []; r_each_ok := []; r_wrap := None; r_pre_ok := true;
                    r_post_ok := true; r_match := None; r_upd := Some c; r_new := [] |} in
  snd (step_item default_policies ex_bob (s3, None) (act "3" [("state", "active")]))
  = ({| objs := objs ex_store ++ [{| o_uid := "3"; o_type := 2; o_owner := Some "bob"; o_pol := "default";
                                     o_content := [("state", "active")] |}]; dead := [] |}, None) /\
  step_item default_policies ex_bob (s3, None) (act "1" [("state", "active")])
  = (ODenied "Could not locate object: 1", (s3, None)).
Proof. split; vm_compute; reflexivity. Qed.

(* Locate never lists an object the requester may not locate *)
Theorem locate_only_permitted : forall P id s ph r ids st',
  r_op r = op_named "LOCATE" -> step_item P id (s, ph) r = (OSuccess ids, st') ->
  forall u, In u ids ->
  exists o, In o (objs s) /\ o_uid o = u /\ allowed_obj P id (op_named "LOCATE") o = true.
Proof.
  intros P id s ph r ids st' Hop Hstep u Hin.
  destruct locate_sites as [h [Hh [Hs Ha]]]. rewrite <- Hop in Hh.
  destruct (listed_are_permitted _ _ _ _ _ _ _ _ Hstep Hh Ha u Hin) as [o [op [Ho [Hu [Hsite Hal]]]]].
  rewrite Hs in Hsite. destruct Hsite as [He|[]]. inversion He; subst. exists o. auto.
Qed.
Print Assumptions locate_only_permitted.

Example locate_only_permitted_nonvacuous :
  fst (step_item default_policies ex_bob (ex_store, None) (ex_req 8 None)) = OSuccess ["2"].
Proof. vm_compute. reflexivity. Qed.


(* every store reachable from the empty one is well formed (identifiers unique, dead ones stay dead) *)
Theorem reachable_wf : forall P h, wf_store (run P empty_store h).
Proof. exact AccessProofs.reachable_wf. Qed.
Print Assumptions reachable_wf.

(* type, owner and policy name of a row never change, over all histories of requests by any clients *)
Theorem rows_never_change : forall P h s o o',
  wf_store s -> In o (objs s) -> In o' (objs (run P s h)) -> o_uid o' = o_uid o -> same_acl o o'.
Proof.
  intros P h s o o' Hwf Hin Hin' Hu. destruct (run_evolves P h s Hwf) as [_ [_ O]].
  destruct (O _ Hin') as [[o0 [H0 S0]]|[_ Hn]].
  - replace o with o0; [exact S0|]. destruct Hwf, S0. eapply nodup_map_inj; eauto. congruence.
  - elim Hn. rewrite Hu. apply in_or_app. left. now apply in_map.
Qed.
Print Assumptions rows_never_change.

(* an object's owner is the identity of the request that created it, forever *)
Theorem owner_forever : forall P s q h o,
  wf_store s ->
  In o (objs (snd (process_request P s q))) -> ~ In (o_uid o) (uids s) ->
  o_owner o = id_user (q_id q) /\
  forall o', In o' (objs (run P (snd (process_request P s q)) h)) -> o_uid o' = o_uid o -> same_acl o o'.
Proof.
  intros P s q h o Hwf Hin Hnew. destruct (process_request_evolves P s q Hwf) as [W1 [_ O1]]. split.
  - destruct (O1 _ Hin) as [[o0 [H0 [E0 _]]]|[Hw _]]; [|now symmetry].
    elim Hnew. rewrite <- E0. now apply in_map.
  - intros o' Hin' Hu. eapply rows_never_change; eauto.
Qed.
Print Assumptions owner_forever.

Definition ex_create : request :=
  {| r_op := 1; r_uid := None; r_uids := []; r_each_ok := []; r_wrap := None; r_pre_ok := true; r_post_ok := true;
     r_match := None; r_upd := None; r_new := [("3", 2, "default", [("state", "pre-active")])] |}.

(* bob creates object 3 and destroys it through the ID placeholder in the same batch; alice's rows stay *)
Example owner_forever_nonvacuous :
  process_request default_policies ex_store {| q_id := ex_bob; q_cont := false; q_items := [ex_create] |}
  = ([OSuccess ["3"]],
     {| objs := objs ex_store ++ [{| o_uid := "3"; o_type := 2; o_owner := Some "bob"; o_pol := "default"; o_content := [("state", "pre-active")] |}]; dead := [] |}) /\
  process_request default_policies ex_store {| q_id := ex_bob; q_cont := false; q_items := [ex_create; ex_req 20 None] |}
  = ([OSuccess ["3"]; OSuccess []], {| objs := objs ex_store; dead := ["3"] |}).
Proof. split; vm_compute; reflexivity. Qed.

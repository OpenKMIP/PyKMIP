(* C11 - Requests are isolated from each other's transient state.
   Model: theories/Isolation/Model.v on top of theories/Uid/Model.v (tied to /repo by harness/c11.py;
   Coq compares: Isolation/Cases.v, and Session.scheck_history at connection level).  The engine
   object's fields that survive a request are an explicit record `transient`; the theorems quantify
   over ALL values of that record, all stores, identities, requests and (by induction) all prefix
   histories. *)
From PK Require Import Isolation.Model Isolation.Proofs Isolation.Session.
From Coq Require Import ZArith List Bool String.
Import ListNotations.
Open Scope Z_scope.

(* response and resulting store of a request do not depend on what earlier requests left in the engine object *)
Theorem transient_irrelevant : forall xs t1 t2 who q,
  fst (process_request xs t1 who q) = fst (process_request xs t2 who q) /\
  fst (snd (process_request xs t1 who q)) = fst (snd (process_request xs t2 who q)).
Proof. exact Proofs.transient_irrelevant. Qed.
Print Assumptions transient_irrelevant.

Theorem history_transient_irrelevant : forall evs xs t1 t2,
  fst (run_history_t true (xs, t1) evs) = fst (run_history_t true (xs, t2) evs) /\
  fst (snd (run_history_t true (xs, t1) evs)) = fst (snd (run_history_t true (xs, t2) evs)).
Proof. exact Proofs.history_transient_irrelevant. Qed.
Print Assumptions history_transient_irrelevant.

(* the property as quantified: for all (prefix history, probe) the probe is answered as by a fresh engine
   object on the same store *)
Theorem probe_equals_fresh : forall evs xs0 t0 who probe,
  let s := snd (run_history_t true (xs0, t0) evs) in
  fst (process_request (fst s) (snd s) who probe) = fst (process_request (fst s) fresh_transient who probe) /\
  fst (snd (process_request (fst s) (snd s) who probe)) = fst (snd (process_request (fst s) fresh_transient who probe)).
Proof. exact Proofs.probe_equals_fresh. Qed.
Print Assumptions probe_equals_fresh.

(* the data flow behind it: a whole batch depends on the engine object only through placeholder, version,
   attribute policy and identity (never the asynchronous flag), and process_request has written all four from
   the request when the batch starts *)
Theorem handlers_read_four_fields : forall cont its xs t t', same_view t t' ->
  fst (fst (run_items_t cont xs t its)) = fst (fst (run_items_t cont xs t' its)) /\
  snd (fst (run_items_t cont xs t its)) = snd (fst (run_items_t cont xs t' its)) /\
  same_view (snd (run_items_t cont xs t its)) (snd (run_items_t cont xs t' its)).
Proof.
  intros cont its xs t t' V. destruct (same_view_differ_in_async t t' V) as (t0 & b & b' & -> & ->).
  destruct (run_items_t_async cont its xs t0) as (rs & xs' & t1 & E). rewrite !E. repeat split.
Qed.
Print Assumptions handlers_read_four_fields.

Theorem batch_view_from_request : forall t who v b,
  let t' := set_ident (set_async (set_version (set_ph (set_ident t nobody) None) v) b) who in
  t_ph t' = None /\ t_ver t' = v /\ t_apv t' = v /\ t_ident t' = who.
Proof. intros. repeat split. Qed.
Print Assumptions batch_view_from_request.

(* the statement is not vacuous: requests do leave placeholder, version, attribute policy and identity behind *)
Example leftovers :
  snd (snd (process_request init_xstore fresh_transient 2
     {| q_ver := 20; q_stamp := StampAbsent; q_async := None; q_undo := false; q_cont := false; q_ids_ok := false;
        q_items := [{| x_item := {| i_op := OCreate 0; i_gate := true |}; x_present := [[]] |}] |}))
  = {| t_ph := Some 1; t_ver := 20; t_apv := 20; t_ident := 2; t_async := false |}.
Proof. exact Proofs.leftovers. Qed.

(* and it distinguishes engines: without the per-request placeholder reset (the tree before fix 668324a,
   process_request_gen false) the same statement is false - recorded as the fixed finding C11-placeholder-survives *)
Theorem old_engine_not_isolated :
  exists xs t1 t2 who q,
    fst (process_request_gen false xs t1 who q) <> fst (process_request_gen false xs t2 who q).
Proof. exact Proofs.old_engine_not_isolated. Qed.
Print Assumptions old_engine_not_isolated.

(* handling a message never changes the session object's fields (all four are configuration) *)
Theorem session_unchanged : forall ss s who f, snd (fst (handle_message ss s who f)) = ss.
Proof. exact Session.session_unchanged. Qed.
Print Assumptions session_unchanged.

(* after ANY messages on a connection the probe is answered as over a new connection to a fresh engine object on
   the same store: in particular a Maximum Response Size stated by an earlier message is gone *)
Theorem probe_equals_fresh_connection : forall prefix now s0 who probe,
  let r := run_connection (new_sess now) s0 who prefix in
  let ss := snd (fst r) in let s := snd r in
  fst (fst (handle_message ss s who probe)) = fst (fst (handle_message (new_sess now) (fst s, fresh_transient) who probe)) /\
  fst (snd (handle_message ss s who probe)) = fst (snd (handle_message (new_sess now) (fst s, fresh_transient) who probe)).
Proof. exact Session.probe_equals_fresh_connection. Qed.
Print Assumptions probe_equals_fresh_connection.

(* false for a session that stores the limit of an earlier message in the session object *)
Theorem sticky_session_not_isolated :
  exists ss1 ss2 s who f,
    ss2 = snd (fst (handle_message_sticky ss1 s who (FReq locate_q (Some 100) 80))) /\
    fst (fst (handle_message_sticky ss1 s who f)) <> fst (fst (handle_message_sticky ss2 s who f)).
Proof. exact Session.sticky_session_not_isolated. Qed.
Print Assumptions sticky_session_not_isolated.

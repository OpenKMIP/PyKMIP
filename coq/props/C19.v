(* C19 - the client reports exactly what the server answered.
   Model: theories/Client/Client.v (KMIPProxy + ProxyKmipClient result handling), Framing.v (KMIPProtocol.read).
   Tie K: harness/c19.py (scripted responder and real server stack; Coq compares, ClientCases.check_ccase). *)
From PK Require Import Base.Bytes Client.Client Client.Framing Client.EndToEnd Client.ClientProofs Client.FramingProofs.
From PK Require Client.Request Client.RequestProofs.
From Coq Require Import ZArith List Bool.
Import ListNotations.
Open Scope Z_scope.

(* ---- tie T: the operation codes of the model are those of kmip/core/enums.py *)
Theorem opcodes_match_enums : forall o, in_table o = true.
Proof. exact ClientProofs.opcodes_match_enums. Qed.
Print Assumptions opcodes_match_enums.

(* ---- success: data comes back iff the status is Success, and it is exactly the payload's *)
Theorem success_iff_status :
  forall o it p, is_pie o = true -> legal_success o it p ->
    exists v, spec_return o p = Some v /\ interpret o (Decoded [it]) = Return v.
Proof. exact success_returns_payload_data. Qed.
Print Assumptions success_iff_status.

Example success_iff_status_inhabited :
  legal_success OMac
    {| ri_op := Some 35; ri_status := 0; ri_reason := None; ri_msg := None;
       ri_payload := Some [(PUniqueIdentifier, VBytes [49]); (PMacData, VBytes [1; 2; 3])] |}
    [(PUniqueIdentifier, VBytes [49]); (PMacData, VBytes [1; 2; 3])].
Proof. repeat split. Qed.

Theorem returns_only_on_success :
  forall o r v, interpret o r = Return v ->
    exists it rest, r = Decoded (it :: rest) /\ ri_status it = SUCCESS.
Proof. exact ClientProofs.returns_only_on_success. Qed.
Print Assumptions returns_only_on_success.

Example returns_only_on_success_inhabited :
  interpret OCreate (Decoded [{| ri_op := Some 1; ri_status := 0; ri_reason := None; ri_msg := None;
                                 ri_payload := Some [(PObjectType, VInt 2); (PUniqueIdentifier, VBytes [55]);
                                                     (PTemplateAttribute, VNone)] |}]) = Return (VBytes [55]).
Proof. vm_compute. reflexivity. Qed.

Theorem never_success_on_failure :
  forall o it rest v, ri_status it <> SUCCESS -> interpret o (Decoded (it :: rest)) <> Return v.
Proof. exact ClientProofs.never_success_on_failure. Qed.
Print Assumptions never_success_on_failure.

Theorem undecodable_raises : forall o, interpret o Undecodable = RaiseOther.
Proof. exact ClientProofs.undecodable_raises. Qed.
Print Assumptions undecodable_raises.

Theorem empty_response_raises : forall o, interpret o (Decoded []) = RaiseOther.
Proof. exact ClientProofs.empty_response_raises. Qed.
Print Assumptions empty_response_raises.

(* ---- failure: whenever an operation-failure error is raised it carries the response verbatim *)
Theorem raise_carries_exact :
  forall o r c st rs m, interpret o r = Raise c st rs m ->
    exists it rest, r = Decoded (it :: rest) /\
      ri_status it = st /\ st <> SUCCESS /\ ri_reason it = Some rs /\ ri_msg it = m.
Proof. exact ClientProofs.raise_carries_exact. Qed.
Print Assumptions raise_carries_exact.

Example raise_carries_exact_inhabited :
  interpret OEncrypt (Decoded [{| ri_op := Some 31; ri_status := 1; ri_reason := Some 12; ri_msg := None;
                                  ri_payload := None |}]) = Raise FPie 1 12 None.
Proof. vm_compute. reflexivity. Qed.

(* every legal failure - message present or absent, operation echoed or absent - is raised as an
   operation failure carrying exactly status, reason and message *)
Theorem failure_carries :
  forall o it rs, is_pie o = true -> legal_failure o it rs ->
    interpret o (Decoded [it]) = Raise (failure_class o) (ri_status it) rs (ri_msg it).
Proof. exact ClientProofs.failure_carries. Qed.
Print Assumptions failure_carries.

Example failure_carries_inhabited :
  legal_failure ODestroy {| ri_op := Some 20; ri_status := 1; ri_reason := Some 1; ri_msg := None; ri_payload := None |} 1.
Proof. repeat split; auto. discriminate. Qed.

(* ---- KMIPProxy: result objects / dictionaries carry exactly status, reason and message *)
Theorem proxy_copies_exactly : forall o it rest, copies it (proxy_call o (Decoded (it :: rest))).
Proof. exact ClientProofs.proxy_copies_exactly. Qed.
Print Assumptions proxy_copies_exactly.

Theorem proxy_failure_reported :
  forall o it rs, legal_failure o it rs -> proxy_call o (Decoded [it]) <> PExc.
Proof.
  intros o it rs H. pose proof (proxy_call_failure o it rs H) as P.
  destruct (style_of o); try destruct P as (c & f & P); rewrite P; discriminate.
Qed.
Print Assumptions proxy_failure_reported.

Example proxy_failure_reported_inhabited :
  legal_failure ODiscoverVersions {| ri_op := Some 30; ri_status := 1; ri_reason := Some 5; ri_msg := None; ri_payload := None |} 5.
Proof. repeat split; auto. discriminate. Qed.

(* ---- framing: chunk independence, intact delivery, early end of stream *)
Theorem read_is_a_function_of_the_stream :
  forall cs, chunks_ok cs -> bytes_ok (concat cs) = true -> flatten (read cs) = read_stream (concat cs).
Proof. exact read_spec. Qed.
Print Assumptions read_is_a_function_of_the_stream.

Theorem client_framing :
  forall cs1 cs2, chunks_ok cs1 -> chunks_ok cs2 -> concat cs1 = concat cs2 -> bytes_ok (concat cs1) = true ->
    flatten (read cs1) = flatten (read cs2).
Proof. exact FramingProofs.client_framing. Qed.
Print Assumptions client_framing.

Example client_framing_inhabited :
  let a := [[66; 0; 123]; [1; 0; 0; 0]; [2; 9]; [9; 7]] in
  let b := [[66; 0; 123; 1; 0; 0; 0; 2; 9; 9; 7]] in
  concat a = concat b /\ read a = FOk [66; 0; 123; 1; 0; 0; 0; 2; 9; 9] [[7]] /\ read b = FOk [66; 0; 123; 1; 0; 0; 0; 2; 9; 9] [[7]].
Proof. vm_compute. auto. Qed.

Theorem frame_delivered_intact :
  forall cs f more, chunks_ok cs -> bytes_ok (f ++ more) = true -> is_frame f -> concat cs = f ++ more ->
    exists rest, read cs = FOk f rest /\ concat rest = more.
Proof. exact FramingProofs.frame_delivered_intact. Qed.
Print Assumptions frame_delivered_intact.

Example frame_delivered_intact_inhabited :
  let f := [66; 0; 123; 1; 0; 0; 0; 2; 9; 9] in
  chunks_ok [[66; 0]; [123; 1; 0; 0; 0; 2; 9]; [9; 5; 5]] /\ is_frame f /\ bytes_ok (f ++ [5; 5]) = true /\
  concat [[66; 0]; [123; 1; 0; 0; 0; 2; 9]; [9; 5; 5]] = f ++ [5; 5].
Proof.
  simpl. repeat split; try reflexivity.
  - repeat constructor; discriminate.
  - exists [66; 0; 123; 1; 0; 0; 0; 2], [9; 9]. repeat split.
Qed.

Theorem early_end_raises :
  forall cs f k, chunks_ok cs -> bytes_ok f = true -> is_frame f -> (k < length f)%nat -> concat cs = firstn k f ->
    read cs = FEof \/ exists e r, read cs = FShort e r.
Proof. exact FramingProofs.early_end_raises. Qed.
Print Assumptions early_end_raises.

Example early_end_raises_inhabited :
  is_frame [66; 0; 123; 1; 0; 0; 0; 2; 9; 9] /\ read [[66; 0; 123]; [1; 0; 0; 0; 2; 9]] = FShort 2 1.
Proof. split; [exists [66; 0; 123; 1; 0; 0; 0; 2], [9; 9]; repeat split | vm_compute; reflexivity]. Qed.

Theorem read_leaves_transport_ok : forall cs f rest, chunks_ok cs -> read cs = FOk f rest -> chunks_ok rest.
Proof. exact FramingProofs.read_leaves_transport_ok. Qed.
Print Assumptions read_leaves_transport_ok.

(* ---- end to end, for any response decoder *)
Theorem client_call_chunk_independent :
  forall decode o cs1 cs2, chunks_ok cs1 -> chunks_ok cs2 -> concat cs1 = concat cs2 -> bytes_ok (concat cs1) = true ->
    client_call decode o cs1 = client_call decode o cs2.
Proof. exact FramingProofs.client_call_chunk_independent. Qed.
Print Assumptions client_call_chunk_independent.

Theorem client_call_complete :
  forall decode o cs f more, chunks_ok cs -> bytes_ok (f ++ more) = true -> is_frame f -> concat cs = f ++ more ->
    client_call decode o cs = interpret o (decode f).
Proof. exact FramingProofs.client_call_complete. Qed.
Print Assumptions client_call_complete.

Theorem client_call_truncated_raises :
  forall decode o cs f k, chunks_ok cs -> bytes_ok f = true -> is_frame f -> (k < length f)%nat -> concat cs = firstn k f ->
    client_call decode o cs = RaiseOther.
Proof. exact FramingProofs.client_call_truncated_raises. Qed.
Print Assumptions client_call_truncated_raises.

(* ---- requests: the envelope the client writes (any version, any operation known to the server, any
   payload body) is read back by the server-side reader as the same version, operation and payload,
   and is one TTLV message.  Names of Client.Request / RequestProofs are used qualified because
   Base.Prim and Client.Client both have constructors called VInt / VBytes. *)
Theorem request_envelope_roundtrip :
  forall opmem v opc payload bs, opmem opc = true ->
    Request.enc_request v opc payload = Some bs ->
    Request.dec_request opmem bs = Some (Request.version_pair v, opc, payload).
Proof. exact RequestProofs.request_envelope_roundtrip. Qed.
Print Assumptions request_envelope_roundtrip.

Example request_envelope_roundtrip_inhabited :
  exists bs, Request.enc_request Request.V14 10 [66; 0; 148; 7; 0; 0; 0; 1; 49; 0; 0; 0; 0; 0; 0; 0] = Some bs /\ length bs = 120%nat.
Proof. eexists. split; vm_compute; reflexivity. Qed.

Theorem request_is_frame :
  forall v opc payload bs, Request.enc_request v opc payload = Some bs -> is_frame bs.
Proof. exact RequestProofs.request_is_frame. Qed.
Print Assumptions request_is_frame.

Theorem request_tags_match_enums : RequestProofs.tags_match_enums_statement.
Proof. vm_compute. reflexivity. Qed.
Print Assumptions request_tags_match_enums.

(* requests_decodable: GIVEN that every request payload class round-trips under every version (C01's
   theorem; here a hypothesis, discharged on every run by correspondence K(a) against the real server
   stack: the server decoded each request and the decoded payload fields equal the arguments), every
   whole request the client emits is decoded by the server to the same version, operation and arguments. *)
Theorem requests_decodable_partial :
  forall (A : Type) (enc_payload : Request.kver -> Z -> A -> option bytes)
         (dec_payload : Request.kver -> Z -> bytes -> option A),
    (forall v opc a body, enc_payload v opc a = Some body -> dec_payload v opc body = Some a) ->
    forall opmem v opc a body bs, opmem opc = true -> enc_payload v opc a = Some body ->
      Request.enc_request v opc body = Some bs ->
      exists body', Request.dec_request opmem bs = Some (Request.version_pair v, opc, body') /\
                    dec_payload v opc body' = Some a.
Proof.
  intros A enc dec RT opmem v opc a body bs Hm He Hr. exists body. split.
  - apply RequestProofs.request_envelope_roundtrip; assumption.
  - apply RT; assumption.
Qed.
Print Assumptions requests_decodable_partial.

(* the full statement has no payload-codec hypothesis; it needs C01's schemas for the 21 request payloads *)
Definition requests_decodable_statement : Prop :=
  forall (A : Type) (enc_payload : Request.kver -> Z -> A -> option bytes)
         (dec_payload : Request.kver -> Z -> bytes -> option A)
         opmem v opc a body bs, opmem opc = true -> enc_payload v opc a = Some body ->
    Request.enc_request v opc body = Some bs ->
    exists body', Request.dec_request opmem bs = Some (Request.version_pair v, opc, body') /\
                  dec_payload v opc body' = Some a.

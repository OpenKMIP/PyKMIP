(* C10 - concurrent sessions behave as if served one request at a time.
   Theorems about the interleaving model (theories/Conc/Interleave.v).  PARTIAL: CPython's scheduler, the
   RLock implementation and SQLite's own locking are trusted; the model's micro-operations are tied to the code by
   the lock-set discipline check and the scheduled runs of harness/c10.py; see notes/C10.md. *)
From PK Require Import Conc.Interleave Conc.InterleaveProofs Conc.InterleaveMore.
From Coq Require Import ZArith List Bool.
Import ListNotations.
Open Scope Z_scope.

(* ALL schedules, any number of clients, any request sequences, any identities: with the lock, the responses and
   the final store are those of serving the requests one at a time in the order they entered process_request,
   and that order keeps every client's own order *)
Theorem c10_locked_serializable : forall cred sched s0 s,
  initial s0 -> run cred true sched s0 = Some s -> final s ->
  (sh s, log s) = seq_run cred (hist s) (sh s0, []) /\
  forall t, proj t (hist s) = queue (thr s0 t).
Proof. exact locked_serializable. Qed.
Print Assumptions c10_locked_serializable.

(* at any moment (not only at the end) at most the lock owner is inside process_request *)
Theorem c10_mutual_exclusion : forall cred sched s0 s t1 t2,
  initial s0 -> run cred true sched s0 = Some s ->
  running (thr s t1) <> None -> running (thr s t2) <> None -> t1 = t2.
Proof.
  intros cred sched s0 s t1 t2 I R H1 H2. destruct (reachable cred sched s0 s I R) as [[Ho _ _] _].
  apply Ho in H1. apply Ho in H2. congruence.
Qed.
Print Assumptions c10_mutual_exclusion.

(* every item of every response was evaluated under the identity of the session that sent it and the protocol
   version / attribute policy of its own request *)
Theorem c10_identity_never_crossed : forall cred sched s0 s t r its it,
  initial s0 -> run cred true sched s0 = Some s -> final s ->
  In (t, r, its) (log s) -> In it its -> who_ok (cred t) it /\ ver_ok (r_ver r) it.
Proof. exact identity_never_crossed. Qed.
Print Assumptions c10_identity_never_crossed.

(* AT EVERY MOMENT of every schedule (clients that never finish, a server stopped half-way): the responses handed
   back so far are a prefix of the one-at-a-time responses in entry order, at most one response is outstanding, and
   whenever nobody is inside process_request the shared state IS the one-at-a-time state *)
Theorem c10_locked_prefix_serializable : forall cred sched s0 s,
  initial s0 -> run cred true sched s0 = Some s ->
  exists tail, snd (seq_run cred (hist s) (sh s0, [])) = (log s ++ tail)%list /\ (List.length tail <= 1)%nat /\
               (lock s = None -> tail = [] /\ fst (seq_run cred (hist s) (sh s0, [])) = sh s).
Proof. exact locked_prefix_serializable. Qed.
Print Assumptions c10_locked_prefix_serializable.

(* the lock is never left behind: whoever holds it is inside process_request *)
Theorem c10_lock_never_left_behind : forall cred sched s0 s t,
  initial s0 -> run cred true sched s0 = Some s -> lock s = Some t -> running (thr s t) <> None.
Proof. exact lock_never_left_behind. Qed.
Print Assumptions c10_lock_never_left_behind.

(* "as if served one at a time" includes being served: under the lock no reachable state is stuck while a client
   still has a request queued or in progress *)
Theorem c10_locked_no_deadlock : forall cred sched s0 s t,
  initial s0 -> run cred true sched s0 = Some s ->
  (queue (thr s t) <> [] \/ running (thr s t) <> None) ->
  exists t', step cred true t' s <> None.
Proof. exact locked_no_deadlock. Qed.
Print Assumptions c10_locked_no_deadlock.

(* non-vacuity, and what the lock is for: with @_synchronize removed a two-client schedule hands bob (credential 2020) the
   key of alice (user 101, credential 1010): his Get is evaluated under her identity *)
Theorem c10_unlocked_refuted :
  exists s, run cred2 false wit_sched (init wit_store wit_queues) = Some s /\
            crossed cred2 s = true /\
            In (1%nat, mkReq 10 [QGet (Some 1)], [mkItem OP_get 0 1 0 (Some 1010) None]) (log s).
Proof. exact unlocked_refuted. Qed.
Print Assumptions c10_unlocked_refuted.

(* the same schedule is not even executable under the lock: alice cannot enter while bob is inside *)
Theorem c10_witness_blocked_by_lock : run cred2 true wit_sched (init wit_store wit_queues) = None.
Proof. vm_compute. reflexivity. Qed.
Print Assumptions c10_witness_blocked_by_lock.

(* the hypotheses are satisfiable by a non-trivial run: both clients served under the lock, bob is refused *)
Definition ok_sched : list nat :=
  (repeat 1%nat 12) ++ (repeat 0%nat 12).

Example ex_locked_run :
  exists s, run cred2 true ok_sched (init wit_store wit_queues) = Some s /\
            (forall t, queue (thr s t) = [] /\ running (thr s t) = None) /\
            log s = [(1%nat, mkReq 10 [QGet (Some 1)], [mkItem OP_get 2 0 0 (Some 2020) None]);
                     (0%nat, mkReq 12 [QGet (Some 1)], [mkItem OP_get 0 1 0 (Some 1010) None])].
Proof.
  apply run_some. vm_compute. split; [|reflexivity]. intros [|[|t]]; auto.
Qed.

Example ex_initial : initial (init wit_store wit_queues).
Proof. repeat split. Qed.

(* a reachable state in the middle of a request: bob holds the lock, alice is queued; the hypotheses of the three
   moment-wise theorems are met by a state that is not final *)
Example ex_midway :
  exists s, run cred2 true (repeat 1%nat 5) (init wit_store wit_queues) = Some s /\
            lock s = Some 1%nat /\ running (thr s 1%nat) <> None /\ queue (thr s 0%nat) <> [] /\ log s = [].
Proof.
  apply run_some. vm_compute. repeat split; discriminate.
Qed.

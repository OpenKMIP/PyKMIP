(* C14 - Locate returns exactly the objects the requester is permitted to locate that match every
   attribute filter in the request, ordered newest first; offset and maximum items select the
   corresponding slice of that same ordered list, so consecutive pages partition the full result.

   Model:  PK.Locate.Locate (locate_request mirrors KmipEngine._process_locate as it is - version gate,
           object loop with "no value -> no match", date tracking, stable sort, slicing; tie K in
           harness/c14.py, applicability / version_added / mask bits through the generated tables, tie T).
   Spec:   locate_spec = slice off max (sort_desc (filter (allowed && forallb matches && date_match) objs)).

   Quantification: every protocol version, every store (list of objects), every access predicate
   `allowed` (hence every requester and policy set), every filter list, every offset/maximum. *)
From Coq Require Import String ZArith List Bool Permutation Sorted.
From PK Require Import Locate.Locate Locate.LocateProofs Locate.LocateExamples.
Import ListNotations.
Open Scope string_scope.
Open Scope list_scope.
Open Scope Z_scope.

(* ------------------------------------------------------------------------------------------------
   1. Refinement.  Hypotheses:
      gate_ok          every filter attribute exists under the request's protocol version (otherwise the
                       request is refused with InvalidField: locate_failure_causes, first clause)
      side_conditions  the visible objects are of the seven stored types and have Initial Date <> 0
                       (server clock past the epoch); usage-mask filters ask only for defined bits;
                       at most two Initial Date filters (one = exact, two = range; a third is refused)
      nonneg           offset and maximum are not negative
   No condition on the KIND of filter: a filter on an attribute for which an object has no
   value (NULL column, class without the field, attribute the server does not keep) simply does not
   match that object, in the model and in the spec.  Each side condition but nonneg is shown necessary
   below (..._needed; negative offset / maximum follow Python's slices: LocateExamples.negative_slices) and they
   are jointly satisfiable (locate_refines_spec_example). *)
Theorem locate_refines_spec : forall ver allowed objs fs off mx,
  gate_ok ver fs = true -> side_conditions allowed objs fs -> nonneg off -> nonneg mx ->
  locate_request ver allowed objs fs off mx = Ok (locate_spec allowed objs fs off mx).
Proof.
  intros ver allowed objs fs off mx G SC. unfold locate_request. rewrite G.
  apply locate_model_refines_general, side_conditions_imply_general, SC.
Qed.
Print Assumptions locate_refines_spec.

Example locate_refines_spec_example :
  (gate_ok ex_ver ex_filters = true /\ side_conditions ex_allowed ex_store ex_filters) /\
  (locate_request ex_ver ex_allowed ex_store ex_filters None None = Ok [3; 6; 7] /\
   locate_request ex_ver ex_allowed ex_store ex_filters (Some 1) (Some 1) = Ok [6] /\
   locate_request ex_ver ex_allowed ex_store [] None None = Ok [3; 6; 4; 1; 2; 7]).
Proof.
  split; [split; [reflexivity | apply side_conditions_b_true; vm_compute; reflexivity] | vm_compute; repeat split].
Qed.

(* the same with crash freedom as an explicit hypothesis instead of the stored types (independent of
   the rule table), on the part of the operation behind the gate *)
Theorem locate_refines_spec_general : forall allowed objs fs off mx,
  side_conditions_general allowed objs fs -> nonneg off -> nonneg mx ->
  locate_model allowed objs fs off mx = Ok (locate_spec allowed objs fs off mx).
Proof. exact locate_model_refines_general. Qed.
Print Assumptions locate_refines_spec_general.

(* from the generated rule table: for the seven stored types the loop never reads a missing attribute *)
Theorem crash_free_for_stored_types : forall objs fs, Forall stored_type objs -> crash_free objs fs.
Proof. exact crash_free_stored. Qed.
Print Assumptions crash_free_for_stored_types.

Theorem locate_never_crashes : forall ver allowed objs fs off mx,
  Forall stored_type (filter allowed objs) -> locate_request ver allowed objs fs off mx <> Crash.
Proof.
  intros ver allowed objs fs off mx T H.
  apply locate_request_cases in H. destruct H as (o & f & Ho & Ha & _ & _ & _ & N). apply N.
  eapply Forall_forall; [exact T|]. apply filter_In. split; assumption.
Qed.
Print Assumptions locate_never_crashes.

(* absent values never match (what the repairs 074870c / 2d8db5c establish): an algorithm/length filter does
   not match a certificate (it stores neither) and the request succeeds; a filter on an attribute the server
   keeps no value for (e.g. Activation Date) matches nothing *)
Theorem absent_value_never_matches :
  (locate_request ex_ver everyone [ex_cert 2 "bob" 100; ex_key 3 "alice" 101 128] [FLen 128] None None = Ok [3] /\
   locate_spec everyone [ex_cert 2 "bob" 100; ex_key 3 "alice" 101 128] [FLen 128] None None = [3]) /\
  (locate_request ex_ver everyone [ex_key 1 "alice" 100 128] [FOther "Activation Date"] None None = Ok [] /\
   locate_spec everyone [ex_key 1 "alice" 100 128] [FOther "Activation Date"] None None = []).
Proof. vm_compute. repeat split. Qed.

(* Each condition of `side_conditions` is needed.
   wf_obj: `if initial_date.get("value")` treats an Initial Date of 0 as absent, so date filters are
   ignored for an object created at the epoch (not reachable with a real clock) *)
Theorem wf_idate_needed :
  locate_request ex_ver everyone [ex_key 1 "alice" 0 128] [FDate 50] None None = Ok [1] /\
  locate_spec everyone [ex_key 1 "alice" 0 128] [FDate 50] None None = [].
Proof. vm_compute. split; reflexivity. Qed.

(* hence the statement without side conditions is not a theorem of the faithful model *)
Definition locate_refines_spec_unconditional_statement : Prop := locate_refines_spec_unconditional.
Theorem locate_refines_spec_unconditional_refuted : ~ locate_refines_spec_unconditional_statement.
Proof.
  intros H. specialize (H ex_ver everyone [ex_key 1 "alice" 0 128] [FDate 50] None None eq_refl I I).
  destruct wf_idate_needed as [E1 E2]. rewrite E1, E2 in H. discriminate.
Qed.
Print Assumptions locate_refines_spec_unconditional_refuted.

(* mask_ok: usage-mask bits outside enums.CryptographicUsageMask are dropped by
   get_enumerations_from_bit_mask before the comparison *)
Theorem mask_ok_needed :
  locate_request ex_ver everyone [ex_key 1 "alice" 100 128] [FMask (4 + 2 ^ 30)] None None = Ok [1] /\
  locate_spec everyone [ex_key 1 "alice" 100 128] [FMask (4 + 2 ^ 30)] None None = [].
Proof. vm_compute. split; reflexivity. Qed.
(* wf_filters: a third Initial Date filter is refused - but only when some visible object reaches it *)
Theorem two_dates_needed :
  locate_request ex_ver everyone [ex_key 1 "alice" 100 128] [FDate 1; FDate 2; FDate 3] None None = TooMany /\
  locate_request ex_ver everyone [] [FDate 1; FDate 2; FDate 3] None None = Ok [] /\
  locate_request ex_ver everyone [ex_key 1 "alice" 100 128] [FObjType 1; FDate 1; FDate 2; FDate 3] None None = Ok [].
Proof. vm_compute. repeat split. Qed.
(* stored_type: the rule table makes the usage mask applicable to templates (type 6), which are never
   stored and have no class carrying the field; for the seven stored types the table guarantees readability *)
Theorem stored_type_needed :
  let t := mkObj 1 6 "alice" (Some "default") false 100 0 0 None None 0 [] [] [] in
  locate_request ex_ver everyone [t] [FMask 4] None None = Crash.
Proof. vm_compute. reflexivity. Qed.
(* the version gate: Sensitive is a KMIP 1.4 attribute; an unknown name is refused under every version *)
Theorem gate_examples :
  locate_request (1, 0) everyone [ex_key 1 "alice" 100 128] [FSensitive false] None None = Refused /\
  locate_request (1, 4) everyone [ex_key 1 "alice" 100 128] [FSensitive false] None None = Ok [1] /\
  locate_request (2, 0) everyone [ex_key 1 "alice" 100 128] [FOther "No Such Attribute"] None None = Refused /\
  locate_request (1, 0) everyone [ex_key 1 "alice" 100 128] [] None None = Ok [1].
Proof. vm_compute. repeat split. Qed.

(* ------------------------------------------------------------------------------------------------
   2. Newest first, and never an object the requester may not locate: NO side condition. *)
Theorem locate_sorted : forall ver allowed objs fs off mx ids,
  locate_request ver allowed objs fs off mx = Ok ids ->
  exists l, ids = map o_uid l /\ StronglySorted desc l /\
            (forall o, In o l -> In o objs /\ allowed o = true).
Proof.
  intros ver allowed objs fs off mx ids H.
  apply locate_request_cases in H. destruct H as (_ & l & E & ->).
  apply locate_objs_cases in E. destruct E as [p ->].
  eexists. split; [reflexivity|]. split.
  - apply page_sorted, sort_desc_sorted.
  - intros o Ho. apply page_incl, sort_desc_In, filter_In, proj1, filter_In in Ho. exact Ho.
Qed.
Print Assumptions locate_sorted.

(* objects with equal Initial Date keep their store order (Python's sorted is stable) *)
Theorem locate_stable : forall allowed objs fs l k, locate_objs allowed objs fs = Ok l ->
  exists p, filter (fun o => o_idate o =? k) l = filter (fun o => o_idate o =? k) (filter p (filter allowed objs)).
Proof.
  intros allowed objs fs l k H. apply locate_objs_cases in H. destruct H as [p ->].
  exists p. apply sort_desc_stable.
Qed.
Print Assumptions locate_stable.

(* the ordered answer is determined by: permutation of the selected set, non-increasing Initial Date,
   store order among equal dates - so `sort_desc` inside locate_spec is not an arbitrary choice *)
Theorem newest_first_unique : forall allowed objs fs l,
  Permutation l (filter (selected allowed fs) objs) ->
  StronglySorted desc l ->
  (forall k, filter (fun o => o_idate o =? k) l = filter (fun o => o_idate o =? k) (filter (selected allowed fs) objs)) ->
  l = spec_objs allowed objs fs.
Proof. intros allowed objs fs l. apply sort_desc_unique. Qed.
Print Assumptions newest_first_unique.

(* ... and the specification's list does meet the three conditions (the hypotheses above are satisfiable) *)
Theorem newest_first_exists : forall allowed objs fs,
  let l := spec_objs allowed objs fs in
  Permutation l (filter (selected allowed fs) objs) /\
  StronglySorted desc l /\
  (forall k, filter (fun o => o_idate o =? k) l = filter (fun o => o_idate o =? k) (filter (selected allowed fs) objs)).
Proof.
  intros. split; [apply sort_desc_perm|]. split; [apply sort_desc_sorted|]. intros k. apply sort_desc_stable.
Qed.
Print Assumptions newest_first_exists.

(* ------------------------------------------------------------------------------------------------
   3. Exactly the permitted matching set (before slicing). *)
Theorem locate_perm : forall ver allowed objs fs,
  gate_ok ver fs = true -> side_conditions allowed objs fs ->
  exists l, locate_objs allowed objs fs = Ok l /\
            locate_request ver allowed objs fs None None = Ok (map o_uid l) /\
            Permutation l (filter (selected allowed fs) objs).
Proof.
  intros ver allowed objs fs G SC. exists (spec_objs allowed objs fs).
  pose proof (locate_objs_refines _ _ _ SC) as E. split; [exact E|]. split.
  - exact (locate_request_ok _ _ _ _ _ None None G E).
  - apply sort_desc_perm.
Qed.
Print Assumptions locate_perm.

Theorem locate_exact : forall allowed objs fs, side_conditions allowed objs fs ->
  exists l, locate_objs allowed objs fs = Ok l /\
    forall o, In o l <->
      In o objs /\ allowed o = true /\ (forall f, In f fs -> matches o f = true) /\
      date_match (filter_dates fs) (o_idate o) = true.
Proof.
  intros allowed objs fs SC. exists (spec_objs allowed objs fs). split; [apply locate_objs_refines, SC|].
  intros o. rewrite spec_objs_In, selected_iff. reflexivity.
Qed.
Print Assumptions locate_exact.

(* ------------------------------------------------------------------------------------------------
   4. Offset and maximum select the corresponding slice of that same ordered list; pages of size n > 0
      at offsets 0, n, 2n, ... concatenate to the full answer and are pairwise disjoint (identifiers
      are unique in the store).  No side condition beyond success of the unsliced request. *)
Theorem locate_slice : forall ver allowed objs fs off mx full,
  nonneg off -> nonneg mx ->
  locate_request ver allowed objs fs None None = Ok full ->
  locate_request ver allowed objs fs off mx = Ok (slice off mx full).
Proof.
  intros ver allowed objs fs off mx full Ho Hm H.
  apply locate_request_cases in H. destruct H as (G & l & E & ->).
  rewrite (locate_request_ok _ _ _ _ _ off mx G E), page_slice, map_slice by assumption. reflexivity.
Qed.
Print Assumptions locate_slice.

Theorem pages_partition : forall ver allowed objs fs (n m : nat) full,
  (0 < n)%nat ->
  locate_request ver allowed objs fs None None = Ok full ->
  (List.length full <= m * n)%nat ->
  exists pages : nat -> list Z,
    (forall k, locate_request ver allowed objs fs (Some (Z.of_nat k * Z.of_nat n)) (Some (Z.of_nat n)) = Ok (pages k)) /\
    concat (map pages (seq 0 m)) = full /\
    (NoDup (map o_uid objs) -> forall i j x, i <> j -> In x (pages i) -> ~ In x (pages j)).
Proof.
  intros ver allowed objs fs n m full Hn H Hm. exists (nth_page n full). split; [|split].
  - intros k. rewrite <- slice_nth_page. apply locate_slice; [|apply Nat2Z.is_nonneg | exact H].
    apply Z.mul_nonneg_nonneg; apply Nat2Z.is_nonneg.
  - rewrite pages_concat_firstn. apply firstn_all2, Hm.
  - intros ND. apply pages_disjoint, (locate_request_nodup _ _ _ _ _ H ND).
Qed.
Print Assumptions pages_partition.

Example pages_partition_example :
  locate_request ex_ver ex_allowed ex_store [] None None = Ok [3; 6; 4; 1; 2; 7] /\
  locate_request ex_ver ex_allowed ex_store [] (Some 0) (Some 4) = Ok [3; 6; 4; 1] /\
  locate_request ex_ver ex_allowed ex_store [] (Some 4) (Some 4) = Ok [2; 7] /\
  locate_request ex_ver ex_allowed ex_store [] (Some 8) (Some 4) = Ok [].
Proof. vm_compute. repeat split. Qed.

(* ------------------------------------------------------------------------------------------------
   5. Filters are conjunctive and their order is irrelevant. *)
Theorem filters_conjunctive : forall allowed objs fs1 fs2,
  filter_dates fs1 = [] ->
  side_conditions allowed objs (fs1 ++ fs2) -> side_conditions allowed objs fs2 ->
  exists l12 l2, locate_objs allowed objs (fs1 ++ fs2) = Ok l12 /\ locate_objs allowed objs fs2 = Ok l2 /\
                 l12 = filter (fun o => forallb (matches o) fs1) l2.
Proof.
  intros allowed objs fs1 fs2 H SC12 SC2.
  exists (spec_objs allowed objs (fs1 ++ fs2)), (spec_objs allowed objs fs2).
  split; [apply locate_objs_refines, SC12|]. split; [apply locate_objs_refines, SC2|].
  apply spec_objs_conj, H.
Qed.
Print Assumptions filters_conjunctive.

Example filters_conjunctive_example :
  filter_dates [FObjType 2; FLen 256] = [] /\
  side_conditions ex_allowed ex_store ([FObjType 2; FLen 256] ++ [FDate 105; FDate 99]) /\
  side_conditions ex_allowed ex_store [FDate 105; FDate 99].
Proof. split; [reflexivity|]. split; apply side_conditions_b_true; vm_compute; reflexivity. Qed.

Theorem filters_order_irrelevant : forall allowed objs fs fs' off mx,
  Permutation fs fs' -> locate_spec allowed objs fs off mx = locate_spec allowed objs fs' off mx.
Proof.
  intros allowed objs fs fs' off mx P. unfold locate_spec, spec_objs. do 3 f_equal.
  apply filter_ext. intros o. apply selected_perm, P.
Qed.
Print Assumptions filters_order_irrelevant.

(* ------------------------------------------------------------------------------------------------
   6. The only ways the operation fails: the version gate (exactly), a third date filter, or - never for
      the seven stored types - an applicable filter whose attribute the object's class lacks. *)
Theorem locate_failure_causes : forall ver allowed objs fs off mx,
  (locate_request ver allowed objs fs off mx = Refused <-> gate_ok ver fs = false) /\
  (locate_request ver allowed objs fs off mx = TooMany -> (List.length (filter_dates fs) > 2)%nat) /\
  (locate_request ver allowed objs fs off mx = Crash ->
     exists o f, In o objs /\ allowed o = true /\ In f fs /\
       applicable f (o_type o) = true /\ readable f o = false /\ ~ stored_type o).
Proof.
  intros ver allowed objs fs off mx.
  repeat split; intros H; try exact (locate_request_cases _ _ _ _ _ _ _ H).
  unfold locate_request. rewrite H. reflexivity.
Qed.
Print Assumptions locate_failure_causes.

(* C09 - crash consistency: acknowledged operations survive, others are all-or-nothing.
   Theorems about the transaction-log model (theories/Crash/Txn.v).  PARTIAL: SQLite's atomic commit
   (journal, fsync, file system) is trusted - `recover` IS that assumption; see notes/C09.md. *)
From PK Require Import Crash.Txn Crash.TxnProofs.
From Coq Require Import ZArith List Bool.
Import ListNotations.
Open Scope Z_scope.

(* every state-changing run: all writes, then exactly one commit, then the acknowledgement; refusals write and commit nothing *)
Theorem c09_one_commit : forall o s,
  commits (trace_of o s) = (if succeeds o s then 1%nat else 0%nat) /\
  (forall i j, nth_error (trace_of o s) j = Some Commit ->
               (exists w, nth_error (trace_of o s) i = Some (Write w)) -> (i < j)%nat) /\
  (forall i j, nth_error (trace_of o s) j = Some Commit ->
               nth_error (trace_of o s) i = Some Ack -> (j < i)%nat) /\
  count_acks (trace_of o s) = 1%nat.
Proof. exact one_commit. Qed.
Print Assumptions c09_one_commit.

(* process death at ANY position k of the run of ANY operation on ANY store: wholly absent or wholly applied *)
Theorem c09_atomic : forall o s k,
  recover (crash_at k (trace_of o s)) s = s \/ recover (crash_at k (trace_of o s)) s = post o s.
Proof. exact atomic. Qed.
Print Assumptions c09_atomic.

(* an operation whose success had been reported is in effect after restart *)
Theorem c09_durable : forall o s k,
  acked (crash_at k (trace_of o s)) = true -> recover (crash_at k (trace_of o s)) s = post o s.
Proof. exact durable. Qed.
Print Assumptions c09_durable.

Theorem c09_nothing_before_commit : forall o s k,
  commits (crash_at k (trace_of o s)) = 0%nat -> recover (crash_at k (trace_of o s)) s = s.
Proof. intros o s k. apply (run_no_commit _ (mkMach s [])). Qed.
Print Assumptions c09_nothing_before_commit.

(* never half of a key pair *)
Theorem c09_keypair_atomic : forall valid a b s k,
  fresh s = true ->
  let r := recover (crash_at k (trace_of (OCreateKeyPair valid a b) s)) s in
  has_object (next_uid s) r = has_object (next_uid s + 1) r.
Proof. exact keypair_atomic. Qed.
Print Assumptions c09_keypair_atomic.

(* never a partial object: an object listed after recovery has its row in every table of its class *)
Theorem c09_no_partial_object : forall o s k,
  complete s = true ->
  complete (recover (crash_at k (trace_of o s)) s) = true.
Proof.
  intros o s k H. destruct (atomic o s k) as [R|R]; rewrite R; [exact H|apply post_complete, H].
Qed.
Print Assumptions c09_no_partial_object.

(* workloads of any length, crash anywhere: the survivor is the state after a prefix of the operations that
   contains every acknowledged one and at most the one in flight *)
Theorem c09_workload_crash : forall ops s k,
  exists j, (j <= length ops)%nat /\
    recover (crash_at k (workload_trace ops s)) s = posts (firstn j ops) s /\
    (count_acks (crash_at k (workload_trace ops s)) <= j)%nat /\
    (j <= count_acks (crash_at k (workload_trace ops s)) + 1)%nat.
Proof. exact workload_crash. Qed.
Print Assumptions c09_workload_crash.

(* and the survivor of a workload started on a sound store is sound (can be listed: no dangling object) *)
Theorem c09_workload_complete : forall ops s k,
  complete s = true ->
  complete (recover (crash_at k (workload_trace ops s)) s) = true.
Proof.
  intros ops s k H. destruct (workload_crash ops s k) as [j [_ [R _]]]. rewrite R. apply posts_complete, H.
Qed.
Print Assumptions c09_workload_complete.

(* a COMMIT the database refuses ('database is locked'): nothing is stored at any cut, and the answer is not SUCCESS *)
Theorem c09_failed_commit_absent : forall o s k w ws,
  writes_of o s = Some (w :: ws) ->
  recover (crash_at k (trace_of_failed_commit o s)) s = s /\ failed_commit_acks_success o s = false.
Proof. exact failed_commit_absent. Qed.
Print Assumptions c09_failed_commit_absent.

(* after a refused COMMIT nothing of the item is applied by ANY later request (any continuation `tr` of the run) *)
Theorem c09_refused_commit_never_applied_later : forall o s w ws tr,
  writes_of o s = Some (w :: ws) ->
  recover (trace_of_failed_commit o s ++ tr) s = recover tr s.
Proof.
  intros o s w ws tr W. unfold recover. rewrite run_app, run_failed_commit.
  unfold failed_commit_acks_success. now rewrite W.
Qed.
Print Assumptions c09_refused_commit_never_applied_later.

(* finding C09-refused-commit-left-pending (notes/C09.md): in the run with no rollback after the refused COMMIT
   the next request's COMMIT applies the refused operation's changes (an equation about that run, not a refutation) *)
Theorem c09_old_refused_commit_applied_by_next_refuted : forall ws ws2 s,
  recover (old_failed_commit_trace ws ++ map Write ws2 ++ [Commit; Ack]) s = apply_writes (ws ++ ws2) s.
Proof. exact old_refused_commit_applied_by_next. Qed.
Print Assumptions c09_old_refused_commit_applied_by_next_refuted.

(* why the order matters: rolling back and committing again acknowledges an operation of which nothing is stored *)
Theorem c09_retry_after_rollback_refuted : forall ws s,
  recover (retry_trace ws) s = s /\ acked (retry_trace ws) = true.
Proof. exact retry_acks_nothing. Qed.
Print Assumptions c09_retry_after_rollback_refuted.

(* ---- the hypotheses are satisfiable by non-trivial states, and the theorems are not vacuous *)
Definition ex_store : store :=
  mkStore [(T_managed, 1, OT_symmetric); (T_crypto, 1, ST_pre_active); (T_keys, 1, 0); (T_sym, 1, 0); (T_names, 1, 1);
           (T_managed, 2, OT_opaque); (T_opaque, 2, 0)] 3.

Example ex_store_sound : complete ex_store = true /\ fresh ex_store = true.
Proof. vm_compute. split; reflexivity. Qed.

(* a key pair run: 8 writes (two names), cut in the middle -> nothing; cut after the commit -> both *)
Example ex_keypair_cut_mid :
  recover (crash_at 5 (trace_of (OCreateKeyPair true 1 1) ex_store)) ex_store = ex_store.
Proof. vm_compute. reflexivity. Qed.

Example ex_keypair_cut_after_commit :
  let r := recover (crash_at 11 (trace_of (OCreateKeyPair true 1 1) ex_store)) ex_store in
  has_object 3 r = true /\ has_object 4 r = true /\ acked (crash_at 11 (trace_of (OCreateKeyPair true 1 1) ex_store)) = false.
Proof. vm_compute. repeat split; reflexivity. Qed.

Example ex_acked_durable :
  acked (crash_at 3 (trace_of (OActivate 1) ex_store)) = true /\
  lookup T_crypto 1 (rows (recover (crash_at 3 (trace_of (OActivate 1) ex_store)) ex_store)) = Some ST_active.
Proof. vm_compute. split; reflexivity. Qed.

(* the discipline matters: a run that commits between the two halves of a key pair (what the code would do with
   a commit after each add) leaves half a pair behind when cut after the first commit *)
Definition split_keypair_trace (s : store) : list event :=
  map (fun r => Write (WIns r)) (base_rows (next_uid s) OT_public) ++ [Commit] ++
  map (fun r => Write (WIns r)) (base_rows (next_uid s + 1) OT_private) ++ [Commit; Ack].

Theorem c09_two_commits_refuted :
  exists s k, fresh s = true /\
    let r := recover (crash_at k (split_keypair_trace s)) s in
    has_object (next_uid s) r = true /\ has_object (next_uid s + 1) r = false.
Proof. exists ex_store, 5%nat. vm_compute. repeat split; reflexivity. Qed.
Print Assumptions c09_two_commits_refuted.

Example ex_failed_commit_hyp : writes_of (OActivate 1) ex_store = Some [WUpd T_crypto 1 ST_active].
Proof. vm_compute. reflexivity. Qed.

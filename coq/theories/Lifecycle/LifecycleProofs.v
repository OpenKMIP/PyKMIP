(* C04 - proofs about Lifecycle.Model (no axioms; plain stdlib).  Each gated operation has one lemma for its guard
   cascade (use_key_spec, mac_spec, derive_key_spec, get_wrap_spec), of the shape (what happens to the store) /\
   (enters (outcome) = true -> gate, with what else the guards checked).  What a step may do to the store is said once,
   by [change] and [step_change]: start from [step_preserves] for a new invariant of stores and from
   [step_transition_exact] for one object across a step; [exec_invariant] carries either along a history. *)
From PK Require Import Lifecycle.Model Lifecycle.Spec.
From Coq Require Import ZArith List Bool Lia ZifyBool.   (* ZifyBool: lia reads hypotheses (x =? y) = b *)
Import ListNotations.
Open Scope Z_scope.
Local Arguments has_bit : simpl never.

Lemma state_eqb_eq : forall a b, state_eqb a b = true <-> a = b.
Proof.
  intros a b. split.
  - destruct a, b; intro H; (reflexivity || discriminate H).
  - intros ->. destruct b; reflexivity.
Qed.

Lemma state_eqb_neq : forall a b, state_eqb a b = false <-> a <> b.
Proof. intros a b. rewrite <- state_eqb_eq. symmetry. apply not_true_iff_false. Qed.

Lemma otype_eqb_eq : forall a b, otype_eqb a b = true <-> a = b.
Proof.
  intros a b. split.
  - destruct a, b; intro H; (reflexivity || discriminate H).
  - intros ->. destruct b; reflexivity.
Qed.

Lemma is_key_compromise_iff : forall c, is_key_compromise c = true <-> c = KeyCompromise.
Proof. destruct c; split; easy. Qed.

Lemma mac_kind_b_iff : forall t, mac_kind_b t = true <-> mac_kind t.
Proof. unfold mac_kind. destruct t; split; intro H; auto; try discriminate; destruct H; discriminate. Qed.

Lemma is_active_iff : forall o, is_active o = true <-> ost o = Some Active.
Proof. intro o. unfold is_active. destruct (ost o) as [[]|]; split; easy. Qed.

Lemma uid_new_objv : forall u t m v, uid (new_objv u t m v) = u.
Proof. intros. unfold new_objv. destruct (has_state t); reflexivity. Qed.

Lemma new_objv_live : forall u t m v, live_state (ost (new_objv u t m v)).
Proof. intros. unfold new_objv, live_state. destruct (has_state t); split; discriminate. Qed.

Lemma lookup_uid : forall l v o, lookup v l = Some o -> uid o = v.
Proof.
  induction l as [|a l IH]; simpl; intros v o H. discriminate.
  destruct (uid a =? v) eqn:E. injection H as <-. lia. eauto.
Qed.

Lemma lookup_set_state : forall l u st v,
  lookup v (set_state u st l) =
  match lookup v l with
  | None => None
  | Some o => Some (if uid o =? u then mkobj (uid o) (oty o) (Some st) (omask o) (oval o) else o)
  end.
Proof.
  induction l as [|a l IH]; simpl; intros u st v. reflexivity.
  destruct (uid a =? u) eqn:E1; simpl; destruct (uid a =? v) eqn:E2; try rewrite E1; try reflexivity; apply IH.
Qed.

Lemma lookup_remove : forall l u v, lookup v (remove_uid u l) = if v =? u then None else lookup v l.
Proof.
  induction l as [|a l IH]; simpl; intros u v.
  - destruct (v =? u); reflexivity.
  - destruct (uid a =? u) eqn:E1; simpl.
    + rewrite IH. destruct (v =? u) eqn:E2. reflexivity.
      destruct (uid a =? v) eqn:E3. lia. reflexivity.
    + destruct (uid a =? v) eqn:E3.
      * destruct (v =? u) eqn:E2. lia. reflexivity.
      * apply IH.
Qed.

Lemma lookup_snoc : forall l n v,
  lookup v (l ++ [n]) = match lookup v l with Some o => Some o | None => if uid n =? v then Some n else None end.
Proof.
  induction l as [|a l IH]; simpl; intros n v. reflexivity.
  destruct (uid a =? v). reflexivity. apply IH.
Qed.

(* [add_obj s t m] is [add_objv s t m true] by unfolding, so this covers both *)
Lemma lookup_add_objv : forall s t m b v,
  lookup v (objs (add_objv s t m b)) =
  match lookup v (objs s) with
  | Some o => Some o
  | None => if next_uid s =? v then Some (new_objv (next_uid s) t m b) else None
  end.
Proof. intros. unfold add_objv; simpl. rewrite lookup_snoc, uid_new_objv. reflexivity. Qed.

(* an identifier below the counter that is absent is not the one a new object gets *)
Lemma lookup_add_objv_none : forall s t m b v,
  lookup v (objs s) = None -> v < next_uid s -> lookup v (objs (add_objv s t m b)) = None.
Proof. intros s t m b v L B. rewrite lookup_add_objv, L. destruct (next_uid s =? v) eqn:E. lia. reflexivity. Qed.

Lemma wf_empty : forall n, wf (empty_store n).
Proof. intros n v ob H. discriminate. Qed.

Lemma wf_addv : forall s t m b, wf s -> wf (add_objv s t m b).
Proof.
  intros s t m b W v ob H. rewrite lookup_add_objv in H. unfold add_objv; simpl.
  destruct (lookup v (objs s)) as [o|] eqn:L.
  - injection H as <-. destruct (W _ _ L). split. lia. assumption.
  - destruct (next_uid s =? v) eqn:E; [|discriminate]. injection H as <-. split. lia. apply new_objv_live.
Qed.

Lemma wf_set_state : forall s u st, wf s -> live_state (Some st) -> wf (mkstore (set_state u st (objs s)) (next_uid s)).
Proof.
  intros s u st W N v ob H. simpl in H. rewrite lookup_set_state in H.
  destruct (lookup v (objs s)) as [o|] eqn:L; [|discriminate].
  destruct (W _ _ L) as [B Lv]. injection H as <-. split. assumption.
  destruct (uid o =? u); assumption.
Qed.

Lemma wf_remove : forall s u, wf s -> wf (mkstore (remove_uid u (objs s)) (next_uid s)).
Proof.
  intros s u W v ob H. simpl in H. rewrite lookup_remove in H. destruct (v =? u). discriminate.
  apply W. assumption.
Qed.

Lemma typed_empty : forall n, wf_typed (empty_store n).
Proof. intros n v ob H. simpl in H. discriminate. Qed.

Lemma typed_addv : forall s t m b, wf_typed s -> wf_typed (add_objv s t m b).
Proof.
  intros s t m b W v ob H T. rewrite lookup_add_objv in H.
  destruct (lookup v (objs s)) as [o|] eqn:L.
  - injection H as <-. eapply W; eassumption.
  - destruct (next_uid s =? v); [|discriminate]. injection H as <-.
    unfold new_objv in *. destruct t; try discriminate T. reflexivity.
Qed.

(* the State of an object that has one may be set: it is not OpaqueData *)
Lemma typed_set_state : forall s u st tg st0, wf_typed s ->
  lookup u (objs s) = Some tg -> ost tg = Some st0 ->
  wf_typed (mkstore (set_state u st (objs s)) (next_uid s)).
Proof.
  intros s u st tg st0 W Lu S v ob H T. simpl in H. rewrite lookup_set_state in H.
  destruct (lookup v (objs s)) as [o|] eqn:L; [|discriminate]. injection H as <-.
  destruct (uid o =? u) eqn:E.
  - assert (v = u) by (apply lookup_uid in L; lia). subst v. rewrite Lu in L. injection L as <-.
    rewrite (W _ _ Lu T) in S. discriminate.
  - eapply W; eassumption.
Qed.

Lemma typed_remove : forall s u, wf_typed s -> wf_typed (mkstore (remove_uid u (objs s)) (next_uid s)).
Proof.
  intros s u W v ob H. simpl in H. rewrite lookup_remove in H. destruct (v =? u). discriminate. apply W with (v := v). assumption.
Qed.

Lemma transition_live : forall o out v a b, live_state a -> transition o out v a b -> live_state b.
Proof. intros o out v a b N T. destruct T; try (split; discriminate). assumption. now destruct N. Qed.

Lemma transition_rank : forall o out v a b, live_state a -> transition o out v a b -> orank a <= orank b.
Proof.
  intros o out v a b [N1 N2] T. destruct T; simpl; try lia.
  destruct st; simpl; try lia; congruence.
Qed.

Lemma transition_property_move : forall o out v a b,
  a <> Some Destroyed -> transition o out v a b -> property_move o v a b.
Proof.
  intros o out v a b ND T. destruct T.
  - left. reflexivity.
  - right. left. auto.
  - right. right. left. exists c. auto.
  - right. right. right. exists KeyCompromise. repeat split; try assumption. left; reflexivity.
  - congruence.
Qed.

(* [entered] as a boolean, the second factor of [crypto_called]: on the outcome of a guard cascade it computes, so in
   a refusing branch the hypothesis that the crypto engine was entered is false = true *)
Definition enters (r : outcome) : bool := match r with OK | CryptoFail | CrashAfter => true | _ => false end.

Lemma entered_enters : forall r, entered r <-> enters r = true.
Proof.
  intro r. unfold entered. split.
  - intros [E|[E|E]]; subst r; reflexivity.
  - destruct r; auto; discriminate.
Qed.

Lemma use_key_store : forall cok s u p t b, snd (use_key cok s u p t b, s) = s.
Proof. reflexivity. Qed.

Lemma use_key_spec : forall cok s u p t b, enters (use_key cok s u p t b) = true -> p = true /\ usable s u t b.
Proof.
  intros cok s u p t b. unfold use_key.
  destruct (lookup u (objs s)) as [ob|] eqn:L; [|discriminate]. destruct p; [|discriminate].
  destruct (otype_eqb (oty ob) t) eqn:T; [|discriminate]. destruct (is_active ob) eqn:A; [|discriminate].
  destruct (has_bit (omask ob) b) eqn:B; [|discriminate].
  intros _. apply otype_eqb_eq in T. apply is_active_iff in A. split. reflexivity. exists ob. auto.
Qed.

Lemma use_key_usable : forall cok s u t b,
  usable s u t b -> use_key cok s u true t b = if cok then OK else CryptoFail.
Proof.
  intros cok s u t b (ob & L & T & A & B). apply otype_eqb_eq in T. apply is_active_iff in A.
  unfold use_key. rewrite L, T, A, B. reflexivity.
Qed.

(* MAC: symmetric key or secret data, Active, MAC Generate bit *)
Lemma mac_spec : forall cok s u alg data,
  let rs := step cok s (MAC u alg data) in
  snd rs = s /\ (enters (fst rs) = true -> gate s (MAC u alg data)).
Proof.
  intros cok s u alg data. simpl.
  destruct (lookup u (objs s)) as [ob|]; [|easy].
  destruct (negb (alg || is_key (oty ob))); [easy|]. destruct (negb (oval ob)); [easy|]. destruct (negb data); [easy|].
  destruct (mac_kind_b (oty ob)) eqn:K; [|easy]. destruct (ost ob) as [st|] eqn:St; [|easy].
  destruct (state_eqb st Active) eqn:A; [|easy]. destruct (has_bit (omask ob) bMAC_GENERATE) eqn:B; [|easy].
  split. destruct cok; reflexivity.
  intros _. apply state_eqb_eq in A. subst st. apply mac_kind_b_iff in K. exists ob. auto.
Qed.

(* DeriveKey: every base object exists, is of a derivable type and carries the DeriveKey bit; there is at least one *)
Lemma derive_bases_none : forall s us, derive_bases s us = None ->
  forall u, In u us -> exists ob, lookup u (objs s) = Some ob /\ derivable (oty ob) = true /\ has_bit (omask ob) bDERIVE_KEY = true.
Proof.
  induction us as [|a us IH]; simpl; intros H u I. contradiction.
  destruct (lookup a (objs s)) as [ob|] eqn:L; [|discriminate].
  destruct (derivable (oty ob)) eqn:G1; [|discriminate].
  destruct (has_bit (omask ob) bDERIVE_KEY) eqn:G2; [|discriminate].
  destruct I as [I|I]. subst a. exists ob. auto. apply IH; assumption.
Qed.

Lemma derive_bases_some : forall s us x, derive_bases s us = Some x -> exists r k, x = Refused r k.
Proof.
  induction us as [|a us IH]; simpl; intros x D. discriminate.
  destruct (lookup a (objs s)) as [ob|]; [|injection D as <-; eauto].
  destruct (negb (derivable (oty ob))); [injection D as <-; eauto|].
  destruct (negb (has_bit (omask ob) bDERIVE_KEY)); [injection D as <-; eauto|].
  apply IH, D.
Qed.

Lemma derive_key_spec : forall cok s us m len,
  let rs := step cok s (DeriveKey us m len) in
  (fst rs = OK -> snd rs = add_objv s SymmetricKey m (negb (len =? 0))) /\
  (fst rs <> OK -> snd rs = s) /\
  (enters (fst rs) = true -> 0 <= len /\ len mod 8 = 0 /\ gate s (DeriveKey us m len)).
Proof.
  intros cok s us m len. simpl.
  destruct (derive_bases s us) as [x|] eqn:D.
  - destruct (derive_bases_some _ _ _ D) as (r & k & ->). easy.
  - destruct us as [|a us]; [easy|]. destruct (len <? 0) eqn:G1; [easy|]. destruct (len mod 8 =? 0) eqn:G2; [|easy].
    split. destruct cok; easy. split. destruct cok; easy.
    intros _. split. lia. split. lia. split. discriminate. apply derive_bases_none, D.
Qed.

(* Get with a key-wrapping specification: the wrapping key is an Active symmetric key with the WrapKey bit, and the
   wrapped object is a key or secret data *)
Lemma get_wrap_spec : forall cok s u w,
  let rs := step cok s (GetWrap u w) in
  snd rs = s /\
  (enters (fst rs) = true ->
   gate s (GetWrap u w) /\ exists ob, lookup u (objs s) = Some ob /\ has_key_block (oty ob) = true).
Proof.
  intros cok s u w. simpl.
  destruct (lookup u (objs s)) as [ob|]; [|easy]. destruct (lookup w (objs s)) as [k|] eqn:L; [|easy].
  destruct (otype_eqb (oty k) SymmetricKey) eqn:T; [|easy]. destruct (is_active k) eqn:A; [|easy].
  destruct (has_bit (omask k) bWRAP_KEY) eqn:B; [|easy]. destruct (has_key_block (oty ob)) eqn:K; [|easy].
  split. destruct cok; reflexivity.
  intros _. apply otype_eqb_eq in T. apply is_active_iff in A. split. exists k. auto. exists ob. auto.
Qed.

(* what a step may do to the store: nothing; one new object at the counter (two for CreateKeyPair); a new State for one object that has a State,
   along [transition]; one identifier removed *)
Inductive change (o : op) (out : outcome) (s : store) : store -> Prop :=
| Ch_none : change o out s s
| Ch_add : forall t m b, change o out s (add_objv s t m b)
| Ch_add2 : forall t m b t' m' b', change o out s (add_objv (add_objv s t m b) t' m' b')
| Ch_state : forall u tg st0 st, lookup u (objs s) = Some tg -> ost tg = Some st0 ->
    transition o out u (Some st0) (Some st) -> change o out s (mkstore (set_state u st (objs s)) (next_uid s))
| Ch_remove : forall u, change o out s (mkstore (remove_uid u (objs s)) (next_uid s)).

(* MAC, DeriveKey and GetWrap through their lemmas; the other guards case by case *)
Lemma step_change : forall cok s o, change o (fst (step cok s o)) s (snd (step cok s o)).
Proof.
  intros cok s o. destruct o.
  - apply Ch_add.
  - apply Ch_add2.
  - apply Ch_add.
  - (* Activate *) simpl.
    destruct (lookup u (objs s)) as [tg|] eqn:L; [|constructor]. destruct (ost tg) as [st|] eqn:S; [|constructor].
    destruct (state_eqb st PreActive) eqn:E; [|constructor]. apply state_eqb_eq in E. subst st.
    eapply Ch_state; eauto. now apply T_activate.
  - (* Revoke *) simpl.
    destruct (lookup u (objs s)) as [tg|] eqn:L; [|constructor]. destruct (ost tg) as [st|] eqn:S; [|constructor].
    destruct (is_key_compromise c) eqn:C.
    + apply is_key_compromise_iff in C. subst c. destruct (state_eqb st Destroyed) eqn:D.
      * apply state_eqb_eq in D. subst st. eapply Ch_state; eauto. now apply T_destroyed_compromise.
      * apply state_eqb_neq in D. eapply Ch_state; eauto. now apply T_compromise.
    + destruct (state_eqb st Active) eqn:A; [|constructor]. apply state_eqb_eq in A. subst st.
      eapply Ch_state; eauto. now apply T_deactivate with c.
  - (* Destroy *) simpl.
    destruct (lookup u (objs s)) as [tg|]; [|constructor]. destruct (is_active tg). constructor. apply Ch_remove.
  - constructor.
  - constructor.
  - constructor.
  - constructor.
  - rewrite (proj1 (mac_spec cok s u alg data)). constructor.
  - destruct (derive_key_spec cok s us m len) as (A & B & _).
    destruct (fst (step cok s (DeriveKey us m len))); try (rewrite B by discriminate; constructor).
    rewrite (A eq_refl). apply Ch_add.
  - rewrite (proj1 (get_wrap_spec cok s u w)). constructor.
  - simpl. destruct (lookup u (objs s)); constructor.
  - simpl. destruct (lookup u (objs s)); constructor.
  - constructor.
Qed.

(* a property of stores is kept by every step if the three ways of building a store keep it *)
Lemma step_preserves : forall P : store -> Prop,
  (forall s t m b, P s -> P (add_objv s t m b)) ->
  (forall s o out u tg st0 st, P s -> lookup u (objs s) = Some tg -> ost tg = Some st0 ->
     transition o out u (Some st0) (Some st) -> P (mkstore (set_state u st (objs s)) (next_uid s))) ->
  (forall s u, P s -> P (mkstore (remove_uid u (objs s)) (next_uid s))) ->
  forall cok s o, P s -> P (snd (step cok s o)).
Proof.
  intros P Hadd Hset Hrem cok s o H. destruct (step_change cok s o).
  - exact H.
  - apply Hadd, H.
  - apply Hadd, Hadd, H.
  - eapply Hset; eassumption.
  - apply Hrem, H.
Qed.

Lemma step_wf : forall cok s o, wf s -> wf (snd (step cok s o)).
Proof.
  apply step_preserves.
  - exact wf_addv.
  - intros s o out u tg st0 st W L S T. apply wf_set_state. exact W.
    apply (transition_live _ _ _ _ _) with (2 := T). rewrite <- S. apply (W _ _ L).
  - exact wf_remove.
Qed.

Lemma step_next_uid : forall cok s o, next_uid s <= next_uid (snd (step cok s o)).
Proof. intros cok s o. apply (step_preserves (fun s' => next_uid s <= next_uid s')); simpl; intros; lia. Qed.

(* an identifier that is below the counter and absent stays so (needed so that "the object u" is one object along a
   history; the full statement about identifiers is property C07) *)
Lemma step_absent_stays : forall cok s o v,
  lookup v (objs s) = None /\ v < next_uid s ->
  lookup v (objs (snd (step cok s o))) = None /\ v < next_uid (snd (step cok s o)).
Proof.
  intros cok s o v. apply (step_preserves (fun s => lookup v (objs s) = None /\ v < next_uid s)).
  - intros s0 t m b [L B]. split. apply lookup_add_objv_none; assumption. simpl. lia.
  - intros s0 _ _ u _ _ st [L B] _ _ _. simpl. rewrite lookup_set_state, L. auto.
  - intros s0 u [L B]. simpl. rewrite lookup_remove, L. destruct (v =? u); auto.
Qed.

Theorem step_transition_exact : forall cok s o out s' v ob ob',
  step cok s o = (out, s') ->
  lookup v (objs s) = Some ob -> lookup v (objs s') = Some ob' ->
  oty ob' = oty ob /\ omask ob' = omask ob /\ transition o out v (ost ob) (ost ob').
Proof.
  intros cok s o out s' v ob ob' H L. pose proof (step_change cok s o) as C. rewrite H in C. simpl in C.
  destruct C as [|t m b|t m b t' m' b'|u tg st0 st Lu S T|u]; intro L'.
  - rewrite L in L'. injection L' as <-. auto using T_same.
  - rewrite lookup_add_objv, L in L'. injection L' as <-. auto using T_same.
  - rewrite lookup_add_objv, lookup_add_objv, L in L'. injection L' as <-. auto using T_same.
  - simpl in L'. rewrite lookup_set_state, L in L'. injection L' as <-. destruct (uid ob =? u) eqn:E.
    + assert (v = u) by (apply lookup_uid in L; lia). subst v. rewrite Lu in L. injection L as ->.
      simpl. rewrite S. auto.
    + auto using T_same.
  - simpl in L'. rewrite lookup_remove in L'. destruct (v =? u); [discriminate|].
    rewrite L in L'. injection L' as <-. auto using T_same.
Qed.

(* the property text's reading ([property_move]), for every store the engine can be in *)
Theorem step_transition : forall cok s o out s' v ob ob',
  wf s -> step cok s o = (out, s') ->
  lookup v (objs s) = Some ob -> lookup v (objs s') = Some ob' ->
  property_move o v (ost ob) (ost ob').
Proof.
  intros cok s o out s' v ob ob' W H L L'.
  destruct (step_transition_exact _ _ _ _ _ _ _ _ H L L') as [_ [_ T]].
  apply transition_property_move with (out := out); [|assumption].
  destruct (W _ _ L) as [_ [N _]]. assumption.
Qed.

(* type and mask of a stored object never change *)
Theorem step_type_mask_fixed : forall cok s o out s' v ob ob',
  step cok s o = (out, s') ->
  lookup v (objs s) = Some ob -> lookup v (objs s') = Some ob' ->
  oty ob' = oty ob /\ omask ob' = omask ob.
Proof.
  intros. destruct (step_transition_exact _ _ _ _ _ _ _ _ H H0 H1) as [A [B _]]. auto.
Qed.

Theorem only_activate_revoke_change_state : forall cok s o out s' v ob ob',
  step cok s o = (out, s') ->
  lookup v (objs s) = Some ob -> lookup v (objs s') = Some ob' ->
  ost ob' <> ost ob ->
  out = OK /\ (o = Activate v \/ exists c, o = Revoke v c).
Proof.
  intros cok s o out s' v ob ob' H L L' D.
  destruct (step_transition_exact _ _ _ _ _ _ _ _ H L L') as [_ [_ T]].
  inversion T; subst.
  - congruence.
  - auto.
  - eauto.
  - eauto.
  - eauto.
Qed.

(* every other operation leaves every State alone, whatever its outcome *)
Corollary other_operations_keep_states : forall cok s o out s' v ob ob',
  step cok s o = (out, s') ->
  (forall u, o <> Activate u) -> (forall u c, o <> Revoke u c) ->
  lookup v (objs s) = Some ob -> lookup v (objs s') = Some ob' -> ost ob' = ost ob.
Proof.
  intros cok s o out s' v ob ob' H NA NR L L'.
  destruct (step_transition_exact _ _ _ _ _ _ _ _ H L L') as [_ [_ T]].
  destruct T as [a|A _|c A _ _|st A _ _|A _].
  - reflexivity.
  - destruct (NA v A).
  - destruct (NR v c A).
  - destruct (NR v _ A).
  - destruct (NR v _ A).
Qed.

Lemma exec_invariant : forall P : store -> Prop,
  (forall cok s o, P s -> P (snd (step cok s o))) -> forall h s, P s -> P (exec s h).
Proof. intros P St. induction h as [|e h IH]; simpl; intros s H. exact H. apply IH, St, H. Qed.

Lemma exec_wf : forall h s, wf s -> wf (exec s h).
Proof. exact (exec_invariant wf step_wf). Qed.

Lemma exec_typed : forall h s, wf_typed s -> wf_typed (exec s h).
Proof.
  apply exec_invariant, step_preserves.
  - exact typed_addv.
  - intros. eapply typed_set_state; eassumption.
  - exact typed_remove.
Qed.

Lemma exec_app : forall h1 h2 s, exec s (h1 ++ h2) = exec (exec s h1) h2.
Proof. intros. unfold exec. apply fold_left_app. Qed.

Theorem monotone_from : forall h s v ob ob',
  wf s -> lookup v (objs s) = Some ob -> lookup v (objs (exec s h)) = Some ob' ->
  orank (ost ob) <= orank (ost ob') /\ oty ob' = oty ob /\ omask ob' = omask ob.
Proof.
  intros h s v ob ob' W L.
  (* the invariant: v stays below the counter, so once destroyed it is never given out again ([step_absent_stays]); while
     it is stored, the object under v compares with ob as claimed *)
  enough (I : wf (exec s h) /\ v < next_uid (exec s h) /\ forall x, lookup v (objs (exec s h)) = Some x ->
              orank (ost ob) <= orank (ost x) /\ oty x = oty ob /\ omask x = omask ob) by apply I.
  pattern (exec s h). apply exec_invariant.
  - intros cok s1 o (W1 & B1 & K1).
    split. apply step_wf, W1. split. pose proof (step_next_uid cok s1 o). lia.
    intros x Lx. destruct (lookup v (objs s1)) as [y|] eqn:Ly.
    + destruct (K1 y eq_refl) as (R & A & B). destruct (step_transition_exact _ _ _ _ _ _ _ _ (surjective_pairing _) Ly Lx) as (A' & B' & T).
      destruct (W1 _ _ Ly) as [_ Lv]. pose proof (transition_rank _ _ _ _ _ Lv T).
      repeat split; try lia; congruence.
    + rewrite (proj1 (step_absent_stays cok s1 o v (conj Ly B1))) in Lx. discriminate.
  - split. exact W. split. apply (W _ _ L). intros x Lx. rewrite L in Lx. injection Lx as <-. repeat split; lia.
Qed.

(* the statement of the property: for every history from the empty store (any first identifier), split anywhere *)
Theorem monotone : forall first h1 h2 v ob ob',
  lookup v (objs (exec (empty_store first) h1)) = Some ob ->
  lookup v (objs (exec (empty_store first) (h1 ++ h2))) = Some ob' ->
  orank (ost ob) <= orank (ost ob').
Proof.
  intros first h1 h2 v ob ob' L L'. rewrite exec_app in L'.
  apply (monotone_from h2 (exec (empty_store first) h1) v ob ob'); try assumption.
  apply exec_wf, wf_empty.
Qed.

Theorem crypto_engine_gated : forall cok s o r s',
  step cok s o = (r, s') -> crypto_called o r = true -> gate s o.
Proof.
  intros cok s o r s' H. change r with (fst (r, s')). rewrite <- H. clear H. intro C.
  destruct o; try discriminate C.
  (* for a gated operation, crypto_called o r reduces to enters r *)
  1-4: exact (proj2 (use_key_spec _ _ _ _ _ _ C)).
  - exact (proj2 (mac_spec _ _ _ _ _) C).
  - destruct (derive_key_spec cok s us m len) as (_ & _ & Entered). destruct (Entered C) as (_ & _ & G). exact G.
  - destruct (get_wrap_spec cok s u w) as [_ Entered]. exact (proj1 (Entered C)).
Qed.

Theorem crypto_gated : forall cok s o s', step cok s o = (OK, s') -> gate s o.
Proof.
  intros cok s o s' H. destruct (gated o) eqn:G.
  - eapply crypto_engine_gated. eassumption. unfold crypto_called. rewrite G. reflexivity.
  - destruct o; try discriminate G; exact I.
Qed.

Theorem gated_store_unchanged : forall cok s o r s',
  step cok s o = (r, s') -> gated o = true ->
  s' = s \/ (exists us m len, o = DeriveKey us m len /\ r = OK /\ s' = add_objv s SymmetricKey m (negb (len =? 0))).
Proof.
  intros cok s o r s' H G. destruct o; try discriminate G.
  1-4: injection H as _ <-; auto.
  - left. rewrite <- (proj1 (mac_spec cok s u alg data)), H. reflexivity.
  - destruct (derive_key_spec cok s us m len) as (A & B & _). rewrite H in A, B.
    destruct r; try (left; apply B; discriminate). right. exists us, m, len. auto.
  - left. rewrite <- (proj1 (get_wrap_spec cok s u w)), H. reflexivity.
Qed.

Theorem destroy_refused_when_active : forall cok s u ob,
  lookup u (objs s) = Some ob -> ost ob = Some Active ->
  step cok s (Destroy u) = (Refused RState PermissionDenied, s).
Proof.
  intros cok s u ob L A. simpl. rewrite L. apply is_active_iff in A. rewrite A. reflexivity.
Qed.

Theorem destroy_ok_inv : forall cok s u s',
  step cok s (Destroy u) = (OK, s') ->
  (exists ob, lookup u (objs s) = Some ob /\ ost ob <> Some Active) /\
  lookup u (objs s') = None /\ (forall v, v <> u -> lookup v (objs s') = lookup v (objs s)).
Proof.
  intros cok s u s' H. simpl in H.
  destruct (lookup u (objs s)) as [ob|] eqn:L; [|discriminate].
  destruct (is_active ob) eqn:A; [discriminate|]. injection H as <-. simpl.
  split. exists ob. split. reflexivity. intro X. apply is_active_iff in X. congruence.
  split. rewrite lookup_remove, Z.eqb_refl. reflexivity.
  intros v N. rewrite lookup_remove. destruct (v =? u) eqn:E. lia. reflexivity.
Qed.

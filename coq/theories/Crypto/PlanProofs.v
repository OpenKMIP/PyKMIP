(* What the plans of Plan.v guarantee.  The symmetric path hangs on sym_plan_of read as a specification
   (sym_plan_of_Ok: the guards of the code and the four families mode_choice of Cipher(alg, mode) calls); from it come
   the inverse plan, Decrypt (Encrypt m) = m over an abstract cipher (Section Laws), the GCM plumbing, and the absence
   of non-KMIP exceptions (Section NoCrash).  Sign/verify is read the same way off sign_plan_Ok. *)
From Coq Require Import ZArith List Bool Lia ZifyBool Btauto.
From PK Require Import Base.Bytes Crypto.Padding Crypto.PaddingProofs Crypto.Plan Crypto.Exec.
From PKGen Require Import CryptoTables.
Import ListNotations.
Open Scope Z_scope.

Lemma assoc_forallb {A} (P : Z * A -> bool) k l v :
  assoc k l = Some v -> forallb P l = true -> P (k, v) = true.
Proof.
  induction l as [|[k' v'] l IH]; simpl; intros H F; try discriminate.
  apply andb_prop in F. destruct F as [F1 F2].
  destruct (k =? k') eqn:E.
  - injection H as <-. apply Z.eqb_eq in E. subst. exact F1.
  - auto.
Qed.

Lemma oeqZ_true o v : oeqZ o v = true -> o = Some v.
Proof. destruct o as [x|]; [|discriminate]. intros H. apply Z.eqb_eq in H. now subst. Qed.

Lemma res_total {A} (r : res A) : (exists e, r = Err e) \/ (exists a, r = Ok a).
Proof. destruct r; eauto. Qed.

(* facts about the GENERATED tables, re-checked by computation whenever they are regenerated *)
Lemma sym_algs_blocks :
  forallb (fun e : Z * (Z * list Z) => (0 <? fst (snd e) / 8) || (fst e =? CA_RC4) && (0 <=? fst (snd e) / 8)) sym_algs = true.
Proof. vm_compute. reflexivity. Qed.

Lemma block_size a bb ks : assoc a sym_algs = Some (bb, ks) -> 0 <= bb / 8 /\ (a <> CA_RC4 -> 0 < bb / 8).
Proof. intros H. pose proof (assoc_forallb _ _ _ _ H sym_algs_blocks) as P. cbn [fst snd] in P. lia. Qed.

Lemma gcm_takes_iv : assoc BCM_GCM cipher_modes = Some true.
Proof. reflexivity. Qed.

(* the IV a plan names: the one supplied or, on encryption only, a fresh block of os.urandom *)
Inductive iv_choice (dec : bool) (blk : Z) : option bytes -> iv_src -> Prop :=
| iv_given v : iv_choice dec blk (Some v) (IVGiven v)
| iv_fresh : dec = false -> iv_choice dec blk None (IVFresh blk).

(* the four families of Cipher(alg, mode) calls *)
Inductive mode_choice (dec : bool) (a : Z) (mode : option Z) (iv : option bytes) (blk : Z)
          (taglen : option Z) (tag : option bytes) : mode_plan -> Prop :=
| mc_stream : a = CA_RC4 -> mode_choice dec a mode iv blk taglen tag MNone
| mc_plain m : a <> CA_RC4 -> mode = Some m -> m <> BCM_GCM -> assoc m cipher_modes = Some false ->
    mode_choice dec a mode iv blk taglen tag (MPlain m)
| mc_iv m s : a <> CA_RC4 -> mode = Some m -> m <> BCM_GCM -> assoc m cipher_modes = Some true ->
    iv_choice dec blk iv s -> mode_choice dec a mode iv blk taglen tag (MIV m s)
| mc_gcm s : a <> CA_RC4 -> mode = Some BCM_GCM -> iv_choice dec blk iv s ->
    mode_choice dec a mode iv blk taglen tag
      (MGCM s (if dec then tag else None) (if dec then olen tag else match taglen with Some t => t | None => 0 end)).

(* the guards are those of the code, in its order *)
Lemma sym_plan_of_Ok dec a key mode pad iv aad taglen tag sp :
  sym_plan_of dec a key mode pad iv aad taglen tag = Ok sp <->
  exists bb ks mp,
    assoc a sym_algs = Some (bb, ks) /\ memZ (8 * zlen key) ks = true /\
    (a =? CA_RC4) && (oeqZ mode BCM_CBC || oeqZ mode BCM_ECB || oeqZ mode BCM_GCM) = false /\
    negb (oeqZ mode BCM_GCM) && is_some aad = false /\
    oeqZ mode BCM_GCM && negb (if dec then is_some tag else is_some taglen) = false /\
    mode_choice dec a mode iv (bb / 8) taglen tag mp /\
    negb dec && is_invalid (pad_step_of mode pad) = false /\
    sp = mkSym a key mp (pad_step_of mode pad) (bb / 8) aad (oeqZ mode BCM_GCM).
Proof.
  unfold sym_plan_of. split.
  - intros H.
    destruct (assoc a sym_algs) as [[bb ks]|]; try discriminate.
    destruct (memZ (8 * zlen key) ks) eqn:Ek; try discriminate. cbn [negb] in H.
    destruct ((a =? CA_RC4) && _); try discriminate.
    destruct (negb (oeqZ mode BCM_GCM) && _); try discriminate.
    destruct (oeqZ mode BCM_GCM && _); try discriminate.
    (* mr: the let-bound mode_r of sym_plan_of *)
    match type of H with match ?mr with _ => _ end = _ => destruct mr as [e|mp] eqn:Er end; try discriminate.
    assert (Hm : mode_choice dec a mode iv (bb / 8) taglen tag mp).
    { destruct (Z.eqb_spec a CA_RC4) as [Ea|Ea]; [injection Er as <-; now constructor|].
      destruct mode as [m|]; try discriminate.
      destruct (assoc m cipher_modes) as [[|]|] eqn:Em; try discriminate.
      - destruct (match iv with Some v => _ | None => _ end) as [e|s] eqn:Es; try discriminate.
        assert (Hs : iv_choice dec (bb / 8) iv s).
        { destruct iv as [v|]; [injection Es as <-; constructor|]. destruct dec; try discriminate. injection Es as <-. now constructor. }
        injection Er as <-. cbn [oeqZ]. destruct (Z.eqb_spec m BCM_GCM) as [->|Eg]; now constructor.
      - injection Er as <-. constructor; auto. intros ->. discriminate. }
    destruct (negb dec && _); try discriminate.
    exists bb, ks, mp. repeat split; auto. now injection H.
  - (* each guard equation rewrites its own test of the unfolded sym_plan_of *)
    intros (bb & ks & mp & -> & -> & -> & -> & -> & Hm & -> & ->). cbn [negb].
    destruct Hm as [->|m Ea -> Eg ->|m s Ea -> Eg -> Hs|s Ea -> Hs].
    + reflexivity.
    + apply Z.eqb_neq in Ea. now rewrite Ea.
    + apply Z.eqb_neq in Ea, Eg. rewrite Ea. cbn [oeqZ]. rewrite Eg. now destruct Hs as [v| ->].
    + apply Z.eqb_neq in Ea. rewrite Ea, gcm_takes_iv. cbn [oeqZ]. rewrite Z.eqb_refl. now destruct Hs as [v| ->].
Qed.

(* fix 4ef300f: an accepted plan for RC4 names none of the block modes *)
Lemma rc4_names_no_block_mode dec key mode pad iv aad taglen tag sp :
  sym_plan_of dec CA_RC4 key mode pad iv aad taglen tag = Ok sp ->
  oeqZ mode BCM_CBC || oeqZ mode BCM_ECB = false /\ oeqZ mode BCM_GCM = false.
Proof.
  intros H. apply sym_plan_of_Ok in H. destruct H as (bb & ks & mp & _ & _ & Hrc & _).
  rewrite Z.eqb_refl in Hrc. now apply orb_false_iff in Hrc.
Qed.

Definition wf_mode (gcm : bool) (m : mode_plan) : Prop :=
  match m with
  | MNone => True
  | MPlain v | MIV v _ => gcm = false /\ v <> BCM_GCM
  | MGCM _ _ _ => gcm = true
  end.

Lemma mode_choice_wf dec a mode iv blk taglen tag mp :
  mode_choice dec a mode iv blk taglen tag mp -> wf_mode (oeqZ mode BCM_GCM) mp.
Proof. destruct 1; subst; cbn; auto; split; auto; lia. Qed.

Lemma mode_choice_val dec a mode iv blk taglen tag mp :
  mode_choice dec a mode iv blk taglen tag mp -> mode_val mp = -1 \/ mode = Some (mode_val mp).
Proof. destruct 1; auto. Qed.

Lemma mode_choice_named dec a mode iv blk taglen tag mp :
  mode_choice dec a mode iv blk taglen tag mp -> a <> CA_RC4 -> mode_val mp <> -1.
Proof. destruct 1; intros; cbn; try discriminate; try contradiction; intros ->; discriminate. Qed.

Lemma mode_choice_gcm dec a iv blk taglen tag mp :
  a <> CA_RC4 -> mode_choice dec a (Some BCM_GCM) iv blk taglen tag mp ->
  exists s, iv_choice dec blk iv s /\
            mp = MGCM s (if dec then tag else None) (if dec then olen tag else match taglen with Some t => t | None => 0 end).
Proof. intros Ha Hm. inversion Hm; try congruence. eauto. Qed.

Lemma pad_step_scheme mode pad :
  (oeqZ mode BCM_CBC || oeqZ mode BCM_ECB) = true -> is_invalid (pad_step_of mode pad) = false ->
  exists s, pad_step_of mode pad = PScheme s.
Proof.
  unfold pad_step_of. intros ->. destruct pad as [p|]; [|discriminate].
  destruct (assoc p sym_paddings); [eauto|discriminate].
Qed.

(* the modes whose data the library wants in whole blocks *)
Definition block_mode (v : Z) : bool := oeqZ (Some v) BCM_CBC || oeqZ (Some v) BCM_ECB.

(* the five things the library checks, one by one *)
Lemma lib_sym_ok_true dec p n :
  lib_sym_ok dec p n = true <->
  match assoc2 (p_alg p) (mode_val (p_mode p)) lib_cipher_ok with
  | Some ks => memZ (8 * zlen (p_key p)) ks | None => false end = true /\
  lib_mode_ok (p_block p) (p_mode p) dec = true /\
  negb (p_gcm p && (mode_val (p_mode p) =? -1) && (negb dec || is_some (p_aad p))) = true /\
  match p_pad p with PScheme _ => 0 <? p_block p | _ => true end = true /\
  (if dec && block_mode (mode_val (p_mode p)) then n mod p_block p =? 0 else true) = true.
Proof. unfold lib_sym_ok, block_mode. rewrite !andb_true_iff. tauto. Qed.

(* what the run of an encrypt plan relies on *)
Definition enc_plan_wf (sp : sym_plan) : Prop :=
  wf_mode (p_gcm sp) (p_mode sp) /\ 0 <= p_block sp /\ p_pad sp <> PInvalid /\
  (block_mode (mode_val (p_mode sp)) = true -> exists s, p_pad sp = PScheme s).

Lemma sym_encrypt_plan_wf a key mode pad iv aad taglen sp :
  sym_plan_of false a key mode pad iv aad taglen None = Ok sp -> enc_plan_wf sp.
Proof.
  intros H. unfold enc_plan_wf. apply sym_plan_of_Ok in H. destruct H as (bb & ks & mp & Ea & _ & _ & _ & _ & Hm & Hp & ->).
  cbn [p_gcm p_mode p_block p_pad negb andb] in *. repeat split.
  - eapply mode_choice_wf; eauto.
  - eapply block_size; eauto.
  - intros E. rewrite E in Hp. discriminate.
  - unfold block_mode. intros Hb. destruct (mode_choice_val _ _ _ _ _ _ _ _ Hm) as [E|E].
    + rewrite E in Hb. discriminate.
    + rewrite <- E in Hb. now apply pad_step_scheme.
Qed.

(* the tag an encryption returns: encryptor.tag[:tag_length] *)
Definition tag_returned (m : mode_plan) (full : bytes) : option bytes :=
  match m with MGCM _ _ mt => Some (firstn (Z.to_nat mt) full) | _ => None end.

(* a GCM plan the library accepted names a mode, so the encryption returns a tag *)
Lemma gcm_tag_returned sp n full :
  wf_mode (p_gcm sp) (p_mode sp) -> lib_sym_ok false sp n = true -> p_gcm sp = true ->
  is_some (tag_returned (p_mode sp) full) = true.
Proof.
  intros W H G. apply lib_sym_ok_true in H. destruct H as (_ & _ & Hg & _). rewrite G in *.
  destruct (p_mode sp); [discriminate Hg|destruct W; discriminate|destruct W; discriminate|reflexivity].
Qed.

Section Laws.
  Variable E : Z -> bytes -> Z -> option bytes -> option bytes -> bytes -> bytes * bytes.
  Variable Dp : Z -> bytes -> Z -> option bytes -> option bytes -> option bytes -> bytes -> option bytes.
  Variable urandom : Z -> bytes.

  (* ASSUMED (not proved): behaviour of the library / OpenSSL and of os.urandom *)
  Hypothesis urandom_len : forall n, 0 <= n -> zlen (urandom n) = n.
  Hypothesis E_len : forall a k m iv aad d, zlen (fst (E a k m iv aad d)) = zlen d.
  Hypothesis E_tag_len : forall a k iv aad d, zlen (snd (E a k BCM_GCM iv aad d)) = 16.
  Hypothesis law_plain : forall a k m iv aad d, m <> BCM_GCM ->
      Dp a k m iv aad None (fst (E a k m iv aad d)) = Some d.
  Hypothesis law_gcm : forall a k iv aad d t, 4 <= t ->
      Dp a k BCM_GCM iv aad (Some (firstn (Z.to_nat t) (snd (E a k BCM_GCM iv aad d)))) (fst (E a k BCM_GCM iv aad d)) = Some d.

  Definition inv_mode (m : mode_plan) (tagv : option bytes) : mode_plan :=
    match m with
    | MNone => MNone
    | MPlain v => MPlain v
    | MIV v s => MIV v (IVGiven (iv_bytes urandom s))
    | MGCM s _ _ => MGCM (IVGiven (iv_bytes urandom s)) tagv (olen tagv)
    end.
  Definition inv_plan (sp : sym_plan) (tagv : option bytes) : sym_plan :=
    mkSym (p_alg sp) (p_key sp) (inv_mode (p_mode sp) tagv) (p_pad sp) (p_block sp) (p_aad sp) (p_gcm sp).

  Lemma mode_choice_inverse a mode iv blk taglen mp tagv :
    mode_choice false a mode iv blk taglen None mp ->
    mode_choice true a mode (match iv_returned urandom mp with Some v => Some v | None => iv end) blk None tagv
                (inv_mode mp tagv).
  Proof.
    destruct 1 as [|m|m s ? ? ? ? Hs|s ? ? Hs]; cbn [inv_mode].
    - now constructor.
    - now constructor.
    - constructor; auto. destruct Hs; constructor.
    - apply (mc_gcm true _ _ _ _ None tagv); auto. destruct Hs; constructor.
  Qed.


  (* plan level: with the same parameters, the IV that encryption used and the tag it returned,
     the decrypt plan is the inverse plan of the encrypt plan *)
  Lemma sym_decrypt_plan_is_inverse a key mode pad iv aad taglen sp tagv :
    sym_plan_of false a key mode pad iv aad taglen None = Ok sp ->
    (p_gcm sp = true -> is_some tagv = true) ->
    sym_plan_of true a key mode pad
                (match iv_returned urandom (p_mode sp) with Some v => Some v | None => iv end) aad None tagv
    = Ok (inv_plan sp tagv).
  Proof.
    intros H Ht. apply sym_plan_of_Ok in H. destruct H as (bb & ks & mp & Ea & Ek & Hrc & Haad & _ & Hm & _ & ->).
    cbn [p_gcm p_mode] in *.
    apply sym_plan_of_Ok. exists bb, ks, (inv_mode mp tagv). repeat split; auto.
    - destruct (oeqZ mode BCM_GCM); [rewrite Ht|]; reflexivity.
    - now apply mode_choice_inverse with taglen.
  Qed.

  Lemma mode_val_inverse m t : mode_val (inv_mode m t) = mode_val m.
  Proof. destruct m; reflexivity. Qed.
  Lemma mode_iv_inverse m t : mode_iv urandom (inv_mode m t) = mode_iv urandom m.
  Proof. destruct m; reflexivity. Qed.

  (* the library accepts the mode again: the IV used has the length the plan named, the returned tag 4..16 bytes *)
  Lemma lib_mode_ok_inverse blk m full :
    0 <= blk -> (mode_val m = BCM_GCM -> zlen full = 16) -> lib_mode_ok blk m false = true ->
    lib_mode_ok blk (inv_mode m (tag_returned m full)) true = true.
  Proof.
    intros Hb Hf.
    assert (Hiv : forall s, 0 <= iv_len s -> iv_len (IVGiven (iv_bytes urandom s)) = iv_len s).
    { intros [v|n]; cbn; auto. }
    destruct m as [| |v s|s t mt]; cbn [inv_mode tag_returned lib_mode_ok olen]; auto; intros H.
    - rewrite Hiv; lia.
    - rewrite Hiv, firstn_zlen, Hf by (reflexivity || lia). lia.
  Qed.

  Lemma lib_sym_ok_inverse sp tagv n n' :
    lib_sym_ok false sp n = true ->
    lib_mode_ok (p_block sp) (inv_mode (p_mode sp) tagv) true = true ->
    (block_mode (mode_val (p_mode sp)) = true -> n' mod p_block sp = 0) ->
    lib_sym_ok true (inv_plan sp tagv) n' = true.
  Proof.
    intros H HM Hn. apply lib_sym_ok_true in H. destruct H as (HK & _ & Hg & HP & _).
    apply lib_sym_ok_true. unfold inv_plan. cbn [p_alg p_key p_mode p_pad p_block p_aad p_gcm]. rewrite mode_val_inverse.
    repeat split; auto.
    - destruct (p_gcm sp && (mode_val (p_mode sp) =? -1)); [discriminate Hg|reflexivity].
    - cbn [andb]. destruct (block_mode _); [|reflexivity]. apply Z.eqb_eq. now apply Hn.
  Qed.

  Lemma decryptor_inverts a k m aad gcm blk d (r := E a k (mode_val m) (mode_iv urandom m) aad d) :
    wf_mode gcm m -> lib_mode_ok blk m false = true ->
    Dp a k (mode_val m) (mode_iv urandom m) aad (mode_tag (inv_mode m (tag_returned m (snd r)))) (fst r) = Some d.
  Proof.
    subst r. destruct m; cbn; intros W L.
    - now apply law_plain.
    - now apply law_plain.
    - now apply law_plain.
    - apply law_gcm. lia.
  Qed.

  Lemma run_sym_encrypt_Ok sp msg out :
    run_sym_encrypt E urandom sp msg = ROk out ->
    lib_sym_ok false sp (zlen msg) = true /\
    let r := E (p_alg sp) (p_key sp) (mode_val (p_mode sp)) (mode_iv urandom (p_mode sp)) (p_aad sp)
               (match p_pad sp with PScheme s => pad s (p_block sp) msg | _ => msg end) in
    out = mkOut (fst r) (iv_returned urandom (p_mode sp)) (tag_returned (p_mode sp) (snd r)).
  Proof.
    unfold run_sym_encrypt, lib_sym_stage. destruct (lib_sym_ok false sp (zlen msg)).
    - intros H. injection H as <-. split; reflexivity.
    - destruct (negb _); [discriminate|]. destruct (_ && _); [discriminate|]. destruct (negb _); discriminate.
  Qed.

  (* running the inverse plan on what the encrypt plan produced *)
  Lemma run_roundtrip sp msg out :
    enc_plan_wf sp ->
    run_sym_encrypt E urandom sp msg = ROk out ->
    run_sym_decrypt Dp urandom (inv_plan sp (eo_tag out)) (eo_ct out) = ROk msg.
  Proof.
    intros (W & Hb & Hp & Hbm) H. apply run_sym_encrypt_Ok in H. destruct H as (Hl & ->). cbn [eo_tag eo_ct].
    destruct (proj1 (lib_sym_ok_true _ _ _) Hl) as (_ & HM & _ & HP & _).
    assert (Hblk : forall s, p_pad sp = PScheme s -> 0 < p_block sp) by (intros s Es; rewrite Es in HP; lia).
    unfold run_sym_decrypt, lib_sym_stage.
    rewrite (lib_sym_ok_inverse _ _ _ _ Hl).
    - unfold inv_plan. cbn [p_alg p_key p_mode p_pad p_block p_aad p_gcm]. rewrite mode_val_inverse, mode_iv_inverse.
      rewrite (decryptor_inverts _ _ _ _ _ _ _ W HM).
      destruct (p_pad sp) as [|s|] eqn:Es; [reflexivity| |contradiction]. rewrite unpad_pad; eauto.
    - apply lib_mode_ok_inverse; auto. intros ->. apply E_tag_len.
    - intros Hc. destruct (Hbm Hc) as [s Es]. rewrite E_len, Es. apply zlen_pad_mod. eauto.
  Qed.

  (* Decrypt (Encrypt m) = m: same parameters, the IV encryption used (supplied, or generated and returned),
     the tag it returned *)
  Theorem decrypt_inverts_encrypt_sym a key mode padm iv aad taglen msg out :
    do_encrypt E urandom a key mode padm iv aad taglen msg = ROk out ->
    do_decrypt Dp urandom a key mode padm
               (match eo_iv out with Some v => Some v | None => iv end) aad (eo_tag out) (eo_ct out) = ROk msg.
  Proof.
    unfold do_encrypt, do_decrypt. intros H.
    destruct (sym_plan_of false a key mode padm iv aad taglen None) as [e|sp] eqn:Hp; try discriminate.
    pose proof (sym_encrypt_plan_wf _ _ _ _ _ _ _ _ Hp) as Hwf.
    destruct (run_sym_encrypt_Ok _ _ _ H) as (Hl & Ho).
    replace (eo_iv out) with (iv_returned urandom (p_mode sp)) by (rewrite Ho; reflexivity).
    rewrite (sym_decrypt_plan_is_inverse _ _ _ _ _ _ _ _ (eo_tag out) Hp).
    - now apply run_roundtrip.
    - rewrite Ho. apply gcm_tag_returned with (zlen msg); auto. apply Hwf.
  Qed.
End Laws.

Lemma gcm_needs_tag_length a key padm iv aad :
  sym_plan_of false a key (Some BCM_GCM) padm iv aad None None = Err InvalidField \/
  sym_plan_of false a key (Some BCM_GCM) padm iv aad None None = Err CryptographicFailure.
Proof.
  destruct (sym_plan_of false a key (Some BCM_GCM) padm iv aad None None) as [[|]|sp] eqn:H; auto.
  apply sym_plan_of_Ok in H. destruct H as (bb & ks & mp & _ & _ & _ & _ & Ht & _). discriminate Ht.
Qed.

Lemma gcm_not_rc4 dec a key padm iv aad taglen tag sp :
  sym_plan_of dec a key (Some BCM_GCM) padm iv aad taglen tag = Ok sp -> a <> CA_RC4.
Proof. intros H ->. apply rc4_names_no_block_mode in H. now destruct H. Qed.

(* decryption releases a plaintext only after the primitive accepted exactly the supplied (iv, aad, tag, ciphertext) *)
Lemma gcm_decrypt_authenticates Dp urandom a key padm iv aad tag ct m :
  do_decrypt Dp urandom a key (Some BCM_GCM) padm iv aad tag ct = ROk m ->
  Dp a key BCM_GCM iv aad tag ct = Some m.
Proof.
  unfold do_decrypt. intros H.
  destruct (sym_plan_of true a key (Some BCM_GCM) padm iv aad None tag) as [e|sp] eqn:Hp; try discriminate.
  pose proof (gcm_not_rc4 _ _ _ _ _ _ _ _ _ Hp) as Hrc.
  apply sym_plan_of_Ok in Hp. destruct Hp as (bb & ks & mp & _ & _ & _ & _ & _ & Hm & _ & ->).
  destruct (mode_choice_gcm _ _ _ _ _ _ _ Hrc Hm) as (s & [v|] & ->); [|discriminate].
  unfold run_sym_decrypt in H. destruct (lib_sym_stage _ _ _); try discriminate. cbn in H.
  destruct (Dp a key BCM_GCM (Some v) aad tag ct); try discriminate. now injection H as ->.
Qed.

(* since fix fd6e5cc Sign refuses a hash it has no mapping for, so every accepted plan names its hash *)
Lemma sign_plan_Ok p sp :
  sign_plan p = Ok sp ->
  exists h pv,
    match s_dsa p with
    | Some d => assoc d dsa_algs = Some (h, CA_RSA)
    | None => s_alg p = Some CA_RSA /\ exists hv, s_hash p = Some hv /\ assoc hv enc_hashes = Some h
    end /\
    s_key_loads p = true /\ s_pad p = Some pv /\ (pv = PM_PSS \/ pv = PM_PKCS1v15) /\
    sp = mkSigPlan (Some h) (if pv =? PM_PSS then SPSS else SPKCS1).
Proof.
  unfold sign_plan. intros H.
  (* sel: the let-bound (hash, algorithm) selection of sign_plan *)
  match type of H with match ?sel with _ => _ end = _ => destruct sel as [e|[ho ao]] eqn:Esel end; try discriminate.
  destruct (oeqZ ao CA_RSA) eqn:Ea; try discriminate. apply oeqZ_true in Ea. subst ao.
  destruct (s_key_loads p); try discriminate.
  destruct (s_pad p) as [pv|]; try discriminate.
  destruct ho as [h|]; try discriminate.
  exists h, pv. split; [|repeat split].
  - destruct (s_dsa p) as [d|].
    + destruct (assoc d dsa_algs) as [[h' a']|]; congruence.
    + destruct (s_alg p), (s_hash p) as [hv|]; try discriminate. cbn [is_some andb] in Esel. split; [congruence|]. exists hv. split; congruence.
  - destruct (Z.eqb_spec pv PM_PSS); auto. destruct (Z.eqb_spec pv PM_PKCS1v15); auto; discriminate.
  - destruct (pv =? PM_PSS); [now injection H|].
    destruct (pv =? PM_PKCS1v15); [now injection H|discriminate].
Qed.

Lemma sign_plan_has_hash p sp : sign_plan p = Ok sp -> lib_sign_ok sp = true.
Proof. intros H. apply sign_plan_Ok in H. now destruct H as (h & pv & _ & _ & _ & _ & ->). Qed.

(* the parameter tuples on which Verify refuses what Sign accepts *)
Definition dsa_inconsistent (p : sig_params) : Prop :=
  exists d dh da, s_dsa p = Some d /\ assoc d dsa_algs = Some (dh, da) /\
    ((exists hv h, s_hash p = Some hv /\ assoc hv enc_hashes = Some h /\ h <> dh) \/
     (exists a, s_alg p = Some a /\ a <> da)).

Lemma verify_matches_sign p sp :
  sign_plan p = Ok sp -> verify_plan p = Ok sp \/ (verify_plan p = Err InvalidField /\ dsa_inconsistent p).
Proof.
  intros H. apply sign_plan_Ok in H. destruct H as (h & pv & Hsel & Hl & Hp & Hpv & ->).
  unfold verify_plan. rewrite Hl, Hp.
  destruct (s_dsa p) as [d|] eqn:Ed; cbv beta iota zeta in Hsel |- *.
  - rewrite Hsel.
    destruct (match match s_hash p with Some hv => _ | None => _ end with Some h0 => _ | None => _ end) eqn:Hash_differs.
    { right. split; [reflexivity|]. exists d, h, CA_RSA. repeat split; auto. left.
      destruct (s_hash p) as [hv|]; [|discriminate]. destruct (assoc hv enc_hashes) as [h0|] eqn:E0; [|discriminate].
      exists hv, h0. repeat split; auto. lia. }
    destruct (match s_alg p with Some a => _ | None => _ end) eqn:Alg_differs.
    { right. split; [reflexivity|]. exists d, h, CA_RSA. repeat split; auto. right.
      destruct (s_alg p) as [a0|]; [|discriminate]. exists a0. split; auto. lia. }
    left. destruct Hpv as [-> | ->]; reflexivity.
  - destruct Hsel as (-> & hv & -> & ->). left. destruct Hpv as [-> | ->]; reflexivity.
Qed.

(* every entry of the generated digital-signature table names RSA and a hash of the hash table *)
Lemma dsa_table_rsa : forallb (fun e : Z * (Z * Z) => (snd (snd e) =? CA_RSA) &&
                                 existsb (fun hh : Z * Z => snd hh =? fst (snd e)) enc_hashes) dsa_algs = true.
Proof. vm_compute. reflexivity. Qed.

(* the KDF plans carry the requested length to the primitive unchanged *)
Lemma derive_plan_len p dp :
  derive_plan p = Ok dp ->
  match dp with
  | DHkdf _ len _ _ _ | DPbkdf2 _ len _ _ _ | DKbkdf _ len _ _ => len = d_len p
  | _ => True
  end.
Proof.
  unfold derive_plan. intros H.
  destruct (oeqZ (d_method p) DM_ENCRYPT).
  - destruct (negb (is_some (d_data p))); try discriminate.
    destruct (encrypt_plan _); try discriminate. now injection H as <-.
  - destruct (d_hash p) as [hv|]; try discriminate.
    destruct (assoc hv enc_hashes) as [h|]; try discriminate.
    destruct (oeqZ (d_method p) DM_HMAC); [now injection H as <-|].
    destruct (oeqZ (d_method p) DM_HASH).
    { destruct (d_data p), (d_key p); try discriminate; now injection H as <-. }
    destruct (oeqZ (d_method p) DM_PBKDF2).
    { destruct (d_salt p); try discriminate. destruct (d_iter p); try discriminate. now injection H as <-. }
    destruct (oeqZ (d_method p) DM_NIST800_108_C); try discriminate. now injection H as <-.
Qed.

(* the accepted set of _encrypt_symmetric written declaratively; props/C06.v states its equivalence with sym_plan_of
   without proving it *)
Definition sym_accepts_enc (a : Z) (key : bytes) (mode padm : option Z) (aad : option bytes) (taglen : option Z) : bool :=
  match assoc a sym_algs with
  | None => false
  | Some (_, ks) =>
      memZ (8 * zlen key) ks
      && (negb (is_some aad) || oeqZ mode BCM_GCM)
      && (negb (oeqZ mode BCM_GCM) || is_some taglen)
      && ((a =? CA_RC4) || match mode with Some m => is_some (assoc m cipher_modes) | None => false end)
      && (negb (oeqZ mode BCM_CBC || oeqZ mode BCM_ECB)
          || match padm with Some p => is_some (assoc p sym_paddings) | None => false end)
  end.

(* the library accepts a plan exactly when every stage does; the two crashes are the padder built for a class
   without block size and, on encryption, the tag read from a stream context *)
Lemma lib_sym_ok_stages dec p n :
  lib_sym_ok dec p n =
  lib_ctor_ok (p_mode p) && lib_cipher_ops_ok dec p n && negb (lib_pad_crash p)
  && negb (p_gcm p && (mode_val (p_mode p) =? -1) && negb dec).
Proof.
  unfold lib_sym_ok, lib_cipher_ops_ok.
  replace (lib_mode_ok (p_block p) (p_mode p) dec) with
    (lib_ctor_ok (p_mode p) && match p_mode p with
                               | MIV _ s => iv_len s =? p_block p
                               | MGCM _ tag _ => if dec then olen tag <=? 16 else true
                               | _ => true
                               end) by now destruct (p_mode p).
  replace (match p_pad p with PScheme _ => 0 <? p_block p | _ => true end) with (negb (lib_pad_crash p))
    by (unfold lib_pad_crash; destruct (p_pad p); auto using Z.ltb_antisym).
  (* what remains rearranges one conjunction *)
  btauto.
Qed.

Lemma stage_crash dec p n :
  lib_sym_stage dec p n = LCrash ->
  lib_pad_crash p = true \/ (p_gcm p = true /\ mode_val (p_mode p) = -1).
Proof.
  unfold lib_sym_stage. rewrite lib_sym_ok_stages.
  destruct (lib_ctor_ok (p_mode p)); [|discriminate].
  destruct (lib_pad_crash p); [auto|]. rewrite andb_false_r.
  destruct (lib_cipher_ops_ok dec p n); [|discriminate]. cbn [andb negb].
  destruct (p_gcm p); [|discriminate]. destruct (Z.eqb_spec (mode_val (p_mode p)) (-1)); [auto|discriminate].
Qed.

(* no plan that the engine's guards accept can end in a non-KMIP exception: a padder or a GCM tag needs a block
   mode, which the guard refuses for RC4; the other classes have a block size and name their mode *)
Lemma plan_stage_never_crashes dec a key mode padm iv aad taglen tag sp n :
  sym_plan_of dec a key mode padm iv aad taglen tag = Ok sp -> lib_sym_stage dec sp n <> LCrash.
Proof.
  intros Hp Hs. apply stage_crash in Hs. pose proof Hp as Hp0. apply sym_plan_of_Ok in Hp.
  destruct Hp as (bb & ks & mp & Ea & _ & _ & _ & _ & Hm & _ & ->).
  unfold lib_pad_crash in Hs. cbn [p_pad p_block p_gcm p_mode] in Hs.
  assert (Ha : a <> CA_RC4).
  { intros ->. destruct (rc4_names_no_block_mode _ _ _ _ _ _ _ _ _ Hp0) as (Eb & Eg). destruct Hs as [Hs|(G & _)].
    - unfold pad_step_of in Hs. rewrite Eb in Hs. discriminate.
    - congruence. }
  destruct Hs as [Hs|(_ & Hv)].
  - apply (block_size _ _ _ Ea) in Ha. destruct (pad_step_of mode padm); [discriminate|lia|discriminate].
  - exact (mode_choice_named _ _ _ _ _ _ _ _ Hm Ha Hv).
Qed.

Lemma crypt_plan_sym dec p sp :
  crypt_plan_of dec p = Ok (CSym sp) ->
  exists a, sym_plan_of dec a (e_key p) (e_mode p) (e_pad p) (e_iv p) (e_aad p) (e_taglen p) (e_tag p) = Ok sp.
Proof.
  unfold crypt_plan_of. intros H.
  destruct (e_alg p) as [a|]; try discriminate.
  destruct (a =? CA_RSA).
  - destruct (asym_pad_of _ _); try discriminate. destruct (e_key_loads p); discriminate.
  - destruct (sym_plan_of dec a _ _ _ _ _ _ _) as [e|sp0] eqn:Hs; try discriminate.
    injection H as <-. eauto.
Qed.

(* every entry point plans first and runs the plan if there is one *)
Lemma planned_run_never_crashes {A B} (r : res A) (run : A -> run_res B) :
  (forall pl, r = Ok pl -> run pl <> RCrash) -> match r with Err e => RErr e | Ok pl => run pl end <> RCrash.
Proof. destruct r; [discriminate|auto]. Qed.

Section NoCrash.
  Variable E : Z -> bytes -> Z -> option bytes -> option bytes -> bytes -> bytes * bytes.
  Variable Dp : Z -> bytes -> Z -> option bytes -> option bytes -> option bytes -> bytes -> option bytes.
  Variable urandom : Z -> bytes.

  Lemma run_sym_encrypt_never_crashes sp msg :
    lib_sym_stage false sp (zlen msg) <> LCrash -> run_sym_encrypt E urandom sp msg <> RCrash.
  Proof. unfold run_sym_encrypt. destruct (lib_sym_stage false sp (zlen msg)); congruence. Qed.

  Lemma run_sym_decrypt_never_crashes sp ct :
    lib_sym_stage true sp (zlen ct) <> LCrash -> run_sym_decrypt Dp urandom sp ct <> RCrash.
  Proof.
    unfold run_sym_decrypt. destruct (lib_sym_stage true sp (zlen ct)); try congruence.
    destruct (Dp _ _ _ _ _ _ _); try discriminate.
    destruct (p_pad sp); try discriminate. destruct (unpad _ _ _); discriminate.
  Qed.

  Lemma do_encrypt_never_crashes a key mode padm iv aad taglen msg :
    do_encrypt E urandom a key mode padm iv aad taglen msg <> RCrash.
  Proof.
    apply planned_run_never_crashes. intros sp Hp.
    apply run_sym_encrypt_never_crashes. eapply plan_stage_never_crashes; eauto.
  Qed.

  Lemma do_decrypt_never_crashes a key mode padm iv aad tag ct :
    do_decrypt Dp urandom a key mode padm iv aad tag ct <> RCrash.
  Proof.
    apply planned_run_never_crashes. intros sp Hp.
    apply run_sym_decrypt_never_crashes. eapply plan_stage_never_crashes; eauto.
  Qed.

  Lemma do_encrypt_no_crash a key mode padm iv aad taglen msg :
    a <> CA_RC4 -> do_encrypt E urandom a key mode padm iv aad taglen msg <> RCrash.
  Proof. intros _. apply do_encrypt_never_crashes. Qed.

  Lemma do_decrypt_no_crash a key mode padm iv aad tag ct :
    a <> CA_RC4 -> do_decrypt Dp urandom a key mode padm iv aad tag ct <> RCrash.
  Proof. intros _. apply do_decrypt_never_crashes. Qed.

  (* encrypt(), decrypt(), sign() as a whole: RE, RD, RS stand for the RSA backend, None = it refuses *)
  Lemma do_encrypt_any_never_crashes RE p msg : do_encrypt_any E urandom RE p msg <> RCrash.
  Proof.
    apply planned_run_never_crashes. intros [sp|key ap] Hp; [|destruct (RE key ap msg); discriminate].
    apply run_sym_encrypt_never_crashes. destruct (crypt_plan_sym _ _ _ Hp). eapply plan_stage_never_crashes; eauto.
  Qed.

  Lemma do_decrypt_any_never_crashes RD p ct : do_decrypt_any Dp urandom RD p ct <> RCrash.
  Proof.
    apply planned_run_never_crashes. intros [sp|key ap] Hp; [|destruct (RD key ap ct); discriminate].
    apply run_sym_decrypt_never_crashes. destruct (crypt_plan_sym _ _ _ Hp). eapply plan_stage_never_crashes; eauto.
  Qed.

  Lemma do_sign_never_crashes RS p msg : do_sign RS p msg <> RCrash.
  Proof. apply planned_run_never_crashes. intros sg _. destruct (RS sg msg); discriminate. Qed.
End NoCrash.

(* Lengths and last byte of pad; unpad (pad m) = m; what a successful unpad says about lengths. *)
From Coq Require Import ZArith List Bool Lia ZifyBool.
From PK Require Import Base.Bytes Base.BytesProofs Crypto.Padding.
Import ListNotations.
Open Scope Z_scope.

Lemma zlen_repeat {A} (x : A) n : zlen (repeat x n) = Z.of_nat n.
Proof. unfold zlen. now rewrite repeat_length. Qed.

Lemma firstn_zlen {A} (l : list A) n : 0 <= n -> zlen (firstn (Z.to_nat n) l) = Z.min n (zlen l).
Proof. intros H. unfold zlen. rewrite firstn_length. lia. Qed.

Lemma pad_amount_range bs len : 0 < bs -> 1 <= pad_amount bs len <= bs.
Proof. intros H. unfold pad_amount. pose proof (Z.mod_pos_bound len bs H). lia. Qed.

Lemma pad_tail_len s n : 1 <= n -> zlen (pad_tail s n) = n.
Proof.
  intros H. unfold pad_tail. destruct (s =? 0).
  - rewrite zlen_repeat. lia.
  - rewrite zlen_app, zlen_repeat. unfold zlen. simpl. lia.
Qed.

Lemma zlen_pad s bs m : 0 < bs -> zlen (pad s bs m) = zlen m + pad_amount bs (zlen m).
Proof.
  intros H. unfold pad. rewrite zlen_app, pad_tail_len; auto.
  apply pad_amount_range; auto.
Qed.

Lemma zlen_pad_mod s bs m : 0 < bs -> zlen (pad s bs m) mod bs = 0.
Proof.
  intros H. rewrite zlen_pad by auto. unfold pad_amount.
  rewrite (Z.div_mod (zlen m) bs) at 1 by lia.
  replace (bs * (zlen m / bs) + zlen m mod bs + (bs - zlen m mod bs)) with ((zlen m / bs + 1) * bs) by lia.
  apply Z.mod_mul. lia.
Qed.

(* both schemes end the tail with the byte that says how long it is *)
Lemma pad_tail_last s n m : 1 <= n -> last (m ++ pad_tail s n) 0 = n.
Proof.
  intros H. unfold pad_tail. destruct (s =? 0).
  - replace (Z.to_nat n) with (S (Z.to_nat (n - 1))) by lia. cbn [repeat].
    rewrite repeat_cons, app_assoc. apply last_last.
  - rewrite app_assoc. apply last_last.
Qed.

Lemma forallb_repeat {A} (f : A -> bool) x n : f x = true -> forallb f (repeat x n) = true.
Proof. intros H. induction n; simpl; auto. now rewrite H. Qed.

Lemma tail_ok_pad_tail s n : tail_ok s n (pad_tail s n) = true.
Proof.
  unfold tail_ok, pad_tail. destruct (s =? 0).
  - apply forallb_repeat. lia.
  - rewrite firstn_app_exact by (symmetry; apply repeat_length). apply forallb_repeat. reflexivity.
Qed.

(* unpad (pad m) = m : every message, both schemes (any scheme id), every positive block size *)
Theorem unpad_pad s bs m : 0 < bs -> unpad s bs (pad s bs m) = Some m.
Proof.
  intros Hbs.
  pose proof (pad_amount_range bs (zlen m) Hbs) as Hr.
  set (n := pad_amount bs (zlen m)) in *.
  unfold unpad.
  rewrite zlen_pad_mod by auto. rewrite zlen_pad by auto. fold n.
  pose proof (zlen_nonneg m) as Hm.
  replace (zlen m + n =? 0) with false by lia.
  simpl.
  unfold pad. fold n. rewrite pad_tail_last by lia.
  replace ((1 <=? n) && (n <=? bs)) with true by lia.
  rewrite firstn_app_exact, skipn_app_exact by (unfold zlen; lia).
  rewrite tail_ok_pad_tail. reflexivity.
Qed.

(* what the library guarantees when unpadding succeeds: the result is a prefix, shorter by 1..bs bytes *)
Lemma unpad_some_len s bs d m : unpad s bs d = Some m -> exists v, 1 <= v <= bs /\ zlen d = zlen m + v.
Proof.
  unfold unpad. intros H.
  destruct ((zlen d =? 0) || negb (zlen d mod bs =? 0)) eqn:E0; try discriminate.
  destruct ((1 <=? last d 0) && (last d 0 <=? bs)) eqn:E; try discriminate.
  destruct (tail_ok s (last d 0) _); try discriminate.
  injection H as <-. exists (last d 0). split; [lia|].
  (* a non-empty multiple of bs has at least bs >= v bytes *)
  assert (Hd : 0 <= zlen d) by apply zlen_nonneg.
  assert (bs <= zlen d) by (destruct (Z.lt_ge_cases (zlen d) bs); [rewrite Z.mod_small in E0; lia|lia]).
  rewrite firstn_zlen by lia. lia.
Qed.

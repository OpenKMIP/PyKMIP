(* C16 - field gating over the byte-level codec schemas (PK.Codec.Schema over PKGen.Schemas, the C01/C02 translator).

   The schema interpreter works, for a structure of class k under version v, on `filter (active v)` of the class's
   item list only (in `wr`, `rd`, and `wfv`): an item whose guard [i_lo, i_hi) excludes v is neither emitted nor
   looked for.  What remains to be shown is that the guards extracted from the source are the right ones: every
   occurrence, in any class of Schemas.E, of a tag of the hand-written SpecFieldVersions table carries i_lo = the
   version the specification introduced the field in (versions are 10*major+minor there).  That holds outside the
   occurrences listed in SchemaKnownUngated (schema_rows_ok, spec_rows_respected: start there) and fails for those
   (schema_rows_ok_full_false, field_gated_schemas_refuted). *)
From Coq Require Import ZArith List String Bool Lia.
From PKGen Require Import Enums.
From PK Require Import Version.Version Version.Fields Version.Spec Version.VersionProofs.
From PK Require Import Codec.Schema.
From PKGen Require Import Schemas.
Import ListNotations.
Open Scope Z_scope.

Definition v10 (v : ver) : Z := 10 * fst v + snd v.
Definition tag_value (n : string) : option Z := assoc_s n E_Tags.

Definition items_of (k : cls) : list item := (c_rd k ++ c_wr k)%list.

(* all (class, i_lo, i_hi) occurrences of a tag value among the items of the schemas *)
Definition occurrences (t : Z) : list (string * Z * Z) :=
  flat_map (fun k => map (fun it => (c_name k, i_lo it, i_hi it)) (filter (fun it => i_tag it =? t) (items_of k)))
           (e_classes Schemas.E).

(* occurrences known NOT to be guarded in the code as it is (known finding C16-attestation-credential-ungated): the
   Attestation credential is a KMIP 1.2 structure, AttestationCredential.read/write have no version test *)
Definition SchemaKnownUngated : list (string * string) := [("AttestationCredential", "ATTESTATION_TYPE")].
Definition known_ungated (c t : string) : bool :=
  existsb (fun e => String.eqb (fst e) c && String.eqb (snd e) t) SchemaKnownUngated.

Definition item_guard_ok (v0 : ver) (it : item) : bool := (i_lo it =? v10 v0) && (v10 (2, 0) <? i_hi it).

(* every occurrence of a listed tag, outside the known-ungated ones, is guarded by exactly the specification's version
   and never closes again *)
Lemma schema_rows_ok :
  forallb (fun e => let '(_, t, v0) := e in
                    match tag_value t with
                    | None => false
                    | Some z => forallb (fun k => forallb (fun it => negb (i_tag it =? z) || known_ungated (c_name k) t || item_guard_ok v0 it)
                                                          (items_of k)) (e_classes Schemas.E)
                    end) SpecFieldVersions = true.
Proof. vm_compute; reflexivity. Qed.

(* the same without the exception: false today *)
Definition schema_rows_ok_full : bool :=
  forallb (fun e => let '(_, t, v0) := e in
                    match tag_value t with
                    | None => false
                    | Some z => forallb (fun k => forallb (fun it => negb (i_tag it =? z) || item_guard_ok v0 it)
                                                          (items_of k)) (e_classes Schemas.E)
                    end) SpecFieldVersions.

Lemma schema_rows_ok_full_false : schema_rows_ok_full = false.
Proof. vm_compute; reflexivity. Qed.

(* each exception is real: the class is in the schemas and holds an unguarded item with that tag *)
Definition known_ungated_real : bool :=
  forallb (fun e => match tag_value (snd e), find_cls Schemas.E (fst e) with
                    | Some z, Some k => existsb (fun it => (i_tag it =? z) && (i_lo it =? 0)) (items_of k)
                    | _, _ => false
                    end) SchemaKnownUngated.

(* rows of the table that do occur in the schemas today *)
Definition schema_covered_rows : list (string * string) :=
  map (fun e => (fst (fst e), snd (fst e)))
      (filter (fun e => match tag_value (snd (fst e)) with
                        | Some z => existsb (fun k => String.eqb (c_name k) (fst (fst e)) && existsb (fun it => i_tag it =? z) (items_of k))
                                            (e_classes Schemas.E)
                        | None => false
                        end) SpecFieldVersions).

(* class-level refusals recorded by the schema translator: every row whose class the specification table knows must carry
   exactly the specification's version; rows of classes the table does not know are listed (reported in the evidence) *)
Definition schema_class_minver_ok : bool :=
  forallb (fun e => match assoc_s (fst e) SpecClassVersions with
                    | Some v0 => snd e =? v10 v0
                    | None => true
                    end) class_minver
  && forallb (fun e => existsb (fun r => String.eqb (fst r) (fst e)) class_minver
                       || negb (existsb (fun k => String.eqb (c_name k) (fst e)) (e_classes Schemas.E))) SpecClassVersions.
Definition schema_class_minver_uncovered : list (string * Z) :=
  filter (fun e => match assoc_s (fst e) SpecClassVersions with Some _ => false | None => true end) class_minver.

Lemma active_filter : forall v items it, In it (filter (active v) items) -> In it items /\ i_lo it <= v < i_hi it.
Proof.
  intros v items it H; apply filter_In in H; destruct H as [H1 H2]; split; [assumption|].
  unfold active in H2; apply andb_true_iff in H2; destruct H2 as [A B].
  apply Z.leb_le in A; apply Z.ltb_lt in B; lia.
Qed.

Lemma spec_rows_respected : forall c t v0 z k it,
  In (c, t, v0) SpecFieldVersions -> tag_value t = Some z -> In k (e_classes Schemas.E) ->
  known_ungated (c_name k) t = false ->
  In it (items_of k) -> i_tag it = z -> i_lo it = v10 v0 /\ v10 (2, 0) < i_hi it.
Proof.
  intros c t v0 z k it Hrow Ht Hk Hex Hit Htag.
  pose proof schema_rows_ok as R.
  rewrite forallb_forall in R; specialize (R _ Hrow); cbv beta iota in R; rewrite Ht in R.
  rewrite forallb_forall in R; specialize (R k Hk).
  rewrite forallb_forall in R; specialize (R it Hit).
  rewrite Htag, Z.eqb_refl, Hex in R; apply andb_true_iff in R.
  destruct R as [A B]; apply Z.eqb_eq in A; apply Z.ltb_lt in B; split; assumption.
Qed.

(* the unrestricted statement is false on the code as it is: witness AttestationCredential / ATTESTATION_TYPE under 1.0 *)
Definition ungated_witness : option (cls * item) :=
  match find_cls Schemas.E "AttestationCredential", tag_value "ATTESTATION_TYPE" with
  | Some k, Some z =>
      match find (fun it => (i_tag it =? z) && active 10 it) (c_rd k) with
      | Some it => Some (k, it)
      | None => None
      end
  | _, _ => None
  end.

Lemma field_gated_schemas_refuted : exists c t v0 z k v it,
  In (c, t, v0) SpecFieldVersions /\ tag_value t = Some z /\ In k (e_classes Schemas.E) /\
  In it (filter (active v) (c_rd k)) /\ i_tag it = z /\ v < v10 v0.
Proof.
  destruct ungated_witness as [[k it]|] eqn:W; [|vm_compute in W; discriminate].
  unfold ungated_witness in W.
  destruct (find_cls Schemas.E "AttestationCredential") as [k'|] eqn:F; [|discriminate].
  destruct (tag_value "ATTESTATION_TYPE") as [z|] eqn:Tz; [|discriminate].
  destruct (find (fun it0 => (i_tag it0 =? z) && active 10 it0) (c_rd k')) as [it'|] eqn:G; [|discriminate].
  inversion W; subst k' it'.
  unfold find_cls in F; apply find_some in F; destruct F as [Hk _].
  apply find_some in G; destruct G as [G1 G2]; apply andb_true_iff in G2; destruct G2 as [G2 G3]; apply Z.eqb_eq in G2.
  (* row 26 of SpecFieldVersions lists the tag for QueryResponsePayload; its unguarded occurrence is in another class,
     AttestationCredential (c and c_name k differ on purpose) *)
  exists "QueryResponsePayload"%string, "ATTESTATION_TYPE"%string, (1, 2), z, k, 10, it.
  split; [apply nth_error_In with (n := 26%nat); reflexivity|]. split; [assumption|]. split; [assumption|].
  split; [apply filter_In; split; assumption|]. split; [assumption | vm_compute; reflexivity].
Qed.

Lemma field_active_from : forall c t v0 z k v it,
  In (c, t, v0) SpecFieldVersions -> tag_value t = Some z -> In k (e_classes Schemas.E) ->
  known_ungated (c_name k) t = false ->
  In it (items_of k) -> i_tag it = z -> v10 v0 <= v <= v10 (2, 0) -> active v it = true.
Proof.
  intros c t v0 z k v it Hrow Ht Hk Hex Hit Htag Hv.
  destruct (spec_rows_respected c t v0 z k it Hrow Ht Hk Hex Hit Htag) as [Hlo Hhi].
  unfold active; apply andb_true_iff; split; [apply Z.leb_le | apply Z.ltb_lt]; lia.
Qed.

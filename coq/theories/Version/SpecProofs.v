(* C16 - the regenerated tables agree with the hand-written specification tables (Spec.v): `tables_agree`, by evaluation.
   Then what each conjunct says in terms of the model: operations (the decorators' minimum of a dispatched operation is the
   specification's), attributes, message fields and structures (Fields.v), later fields on the wire. *)
From Coq Require Import ZArith List String Bool.
From PKGen Require Import AttrRuleTable Versions VersionFields.
From PK Require Import Version.Version Version.Fields Version.Spec Version.VersionProofs.
Import ListNotations.
Open Scope Z_scope.

Lemma tables_agree : ops_agree_with_spec = true /\ supported_agree_with_spec = true /\ attrs_agree_with_spec = true
  /\ attr_tags_agree_with_spec = true /\ fields_agree_with_spec = true /\ classes_agree_with_spec = true
  /\ read_write_symmetric = true /\ spec_covers_intro_guards = true.
Proof. repeat apply conj; vm_compute; reflexivity. Qed.

(* on a dispatched operation the decorators' minimum is the specification's *)
Lemma dispatched_spec_min : forall op h, lookup_handler op = Some h -> spec_op_min op = op_min_version op.
Proof.
  intros op h E; destruct tables_agree as [A _].
  (* here and below the check is unfolded in the goal: unfolded in A, Qed would evaluate it once more *)
  revert A; unfold ops_agree_with_spec; intro A.
  rewrite forallb_forall in A; specialize (A (op, h) (assoc_z_In _ _ _ _ E)); simpl in A.
  destruct (spec_op_min op) as [s|], (op_min_version op) as [m|]; try discriminate.
  apply ver_eqb_eq in A; subst; reflexivity.
Qed.

Lemma gate_run_spec : forall v op h, In v supported_versions -> gate v op = GateRun h ->
  lookup_handler op = Some h /\
  exists mv, op_min_version op = Some mv /\ spec_op_min op = Some mv /\ ver_leb mv v = true.
Proof.
  intros v op h Hv Hg; destruct (gate_run_inv v op h Hv Hg) as (Hl & mv & Hm & Hle).
  split; [assumption|]; exists mv; rewrite (dispatched_spec_min op h Hl); auto.
Qed.

Lemma attr_gated_spec : forall v n, ver_ltb v (spec_attr_min n) = true -> attr_supported v n = false.
Proof.
  intros v n H; destruct (find_rule n) as [r|] eqn:E; [|exact (attr_unknown_unsupported v n E)].
  apply (attr_later_unsupported v n r E).
  destruct tables_agree as (_ & _ & A & _); revert A; unfold attrs_agree_with_spec; intro A.
  apply find_some in E; destruct E as [E1 E2]; apply String.eqb_eq in E2.
  rewrite forallb_forall in A; specialize (A r E1); apply andb_true_iff in A; destruct A as [A _].
  apply ver_eqb_eq in A; rewrite A, E2; assumption.
Qed.

(* Locate filters: _process_locate refuses a filter attribute the request's version does not have (fix 1a2a215) *)
Lemma locate_checked : locate_filter_checked = true.
Proof. vm_compute; reflexivity. Qed.

Lemma tag_allowed_from_spec_version : forall cls t v0 v, In (cls, t, v0) SpecFieldVersions -> In v kmip_versions ->
  tag_allowed cls v t = ver_leb v0 v.
Proof.
  intros cls t v0 v Hin Hv; destruct tables_agree as (_ & _ & _ & _ & A & _).
  revert A; unfold fields_agree_with_spec; intro A.
  rewrite forallb_forall in A; specialize (A _ Hin); apply andb_true_iff in A; destruct A as [_ A].
  rewrite forallb_forall in A; rewrite ver_leb_geb; exact (eqb_prop _ _ (A v Hv)).
Qed.

Lemma ver_opt_eqb_eq : forall a b, ver_opt_eqb a b = true -> a = b.
Proof.
  intros [x|] [y|] H; try discriminate; [apply ver_eqb_eq in H; subst|]; reflexivity.
Qed.

Lemma class_gated_lemma : forall cls v0, In (cls, v0) SpecClassVersions ->
  class_min_version "read" cls = Some v0 /\ class_min_version "write" cls = Some v0.
Proof.
  intros cls v0 Hin; destruct tables_agree as (_ & _ & _ & _ & _ & A & _).
  revert A; unfold classes_agree_with_spec; intro A.
  rewrite forallb_forall in A; specialize (A _ Hin); apply andb_true_iff in A.
  destruct A as [A1 A2]; split; apply ver_opt_eqb_eq; [exact A1 | exact A2].
Qed.

(* read and write of a listed structure refuse exactly the versions below the one that introduced it; the guards of
   the class and method are looked up once for all versions *)
Lemma class_rows_ok :
  forallb (fun meth => forallb (fun e =>
      let gs := class_guards (fst e) meth in
      forallb (fun v => Bool.eqb (existsb (fun g => fg_then_raises g && guard_holds g v) gs) (ver_ltb v (snd e))) kmip_versions)
    SpecClassVersions) ["read"; "write"]%string = true.
Proof. vm_compute; reflexivity. Qed.

Lemma class_refused_in_spec : forall meth cls v0 v, In meth ["read"; "write"]%string ->
  In (cls, v0) SpecClassVersions -> In v kmip_versions -> class_refused_in meth cls v = ver_ltb v v0.
Proof.
  intros meth cls v0 v Hm Hin Hv; pose proof class_rows_ok as A.
  rewrite forallb_forall in A; specialize (A _ Hm).
  rewrite forallb_forall in A; specialize (A _ Hin); cbv zeta in A.
  rewrite forallb_forall in A; exact (eqb_prop _ _ (A v Hv)).
Qed.

(* later fields inside a request on the wire: refused unless the class's reader is a tolerant one *)
Lemma wire_field_refused : forall cls t v0 v, In (cls, t, v0) SpecFieldVersions -> In v kmip_versions ->
  str_in cls tolerant_readers = false -> ver_ltb v v0 = true -> wire_processed cls v t = false.
Proof.
  intros cls t v0 v Hrow Hv Htol Hlt; unfold wire_processed.
  rewrite (tag_allowed_from_spec_version cls t v0 v Hrow Hv), Htol, ver_leb_negb_ltb, Hlt; apply andb_false_r.
Qed.

(* no reader of a class with version blocks leaves items unread (computed on the regenerated table) *)
Lemma no_tolerant_readers : tolerant_readers = [].
Proof. vm_compute; reflexivity. Qed.

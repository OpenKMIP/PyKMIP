(* C16 - lemmas about the version model (Version.v), in its order.  The decorators compare float(str(v)); on one-digit
   minors, which is all the regenerated tables hold (one_digit_tables), that is the ProtocolVersion order
   (float_ltb_one_digit), so the gate of _process_operation is the comparison with the operation's minimum version
   (gate_char, gate_runs_min).  What a batch enters is read off the gate (Section EngineProofs). *)
From Coq Require Import ZArith List String Bool Lia ZifyBool Sorting.Sorted.
From PKGen Require Import AttrRuleTable Versions.
From PK Require Import Version.Version Version.Fields Version.Spec.
Import ListNotations.
Open Scope Z_scope.

Lemma ver_eqb_eq : forall a b : ver, ver_eqb a b = true <-> a = b.
Proof.
  intros [a1 a2] [b1 b2]; unfold ver_eqb, ver; simpl.
  rewrite pair_equal_spec, andb_true_iff, !Z.eqb_eq; reflexivity.
Qed.

Lemma ver_eqb_refl : forall a, ver_eqb a a = true.
Proof. intro a; apply ver_eqb_eq; reflexivity. Qed.

Lemma ver_eqb_sym : forall a b, ver_eqb a b = ver_eqb b a.
Proof. intros a b; unfold ver_eqb; rewrite (Z.eqb_sym (fst a)), (Z.eqb_sym (snd a)); reflexivity. Qed.

Lemma ver_ltb_spec : forall a b : ver,
  ver_ltb a b = true <-> (fst a < fst b \/ (fst a = fst b /\ snd a < snd b)).
Proof.
  intros a b; unfold ver_ltb.
  destruct (fst a <? fst b) eqn:E1, (fst b <? fst a) eqn:E2; lia.
Qed.

(* the other comparisons in terms of ver_ltb; __gt__ is __lt__ with the arguments exchanged (this is where the order is total) *)
Lemma ver_gtb_ltb : forall a b, ver_gtb a b = ver_ltb b a.
Proof.
  intros a b; unfold ver_gtb, ver_eqb, ver_ltb.
  destruct (fst a <? fst b) eqn:E1, (fst b <? fst a) eqn:E2; lia.
Qed.

Lemma ver_leb_negb_ltb : forall a b, ver_leb a b = negb (ver_ltb b a).
Proof. intros a b; rewrite <- ver_gtb_ltb; unfold ver_gtb; rewrite negb_involutive; reflexivity. Qed.

Lemma ver_leb_geb : forall a b, ver_leb a b = ver_geb b a.
Proof. intros a b; unfold ver_leb, ver_geb; rewrite ver_gtb_ltb, ver_eqb_sym; reflexivity. Qed.

Lemma ver_geb_negb_ltb : forall a b, ver_geb a b = negb (ver_ltb a b).
Proof. intros a b; rewrite <- ver_leb_geb; apply ver_leb_negb_ltb. Qed.

Lemma ver_leb_spec : forall a b, ver_leb a b = true <-> (a = b \/ ver_ltb a b = true).
Proof.
  intros a b; unfold ver_leb; rewrite orb_true_iff, ver_eqb_eq; tauto.
Qed.

Lemma ver_ltb_trans : forall a b c, ver_ltb a b = true -> ver_ltb b c = true -> ver_ltb a c = true.
Proof. intros a b c H1 H2; apply ver_ltb_spec in H1; apply ver_ltb_spec in H2; apply ver_ltb_spec; lia. Qed.

Lemma ver_ltb_max : forall v a b, ver_ltb v (ver_max a b) = ver_ltb v a || ver_ltb v b.
Proof.
  intros v a b; apply eq_true_iff_eq; rewrite orb_true_iff, !ver_ltb_spec; unfold ver_max.
  destruct (ver_ltb a b) eqn:E; [apply ver_ltb_spec in E | apply not_true_iff_false in E; rewrite ver_ltb_spec in E]; lia.
Qed.

Lemma ver_mem_In : forall v l, ver_mem v l = true <-> In v l.
Proof.
  intros v l; unfold ver_mem; rewrite existsb_exists; split.
  - intros [x [Hin He]]; apply ver_eqb_eq in He; subst; assumption.
  - intro H; exists v; split; [assumption | apply ver_eqb_refl].
Qed.

Lemma digits_aux_small : forall f n, n < 10 -> digits_aux (S f) n = 1%nat.
Proof. intros f n H; simpl; destruct (n <? 10) eqn:E; [reflexivity | lia]. Qed.
Lemma digits_small : forall n, n < 10 -> digits n = 1%nat.
Proof. intros n H; unfold digits; apply (digits_aux_small 29 n H). Qed.

(* with one-digit minors, as in every KMIP version published so far, "<major>.<minor>" reads as major * 10 + minor tenths,
   so comparing the floats is comparing the versions *)
Lemma dec_cmp_one_digit : forall a b : ver, snd a < 10 -> snd b < 10 ->
  dec_cmp a b = (fst a * 10 + snd a ?= fst b * 10 + snd b).
Proof.
  intros a b Ha Hb; unfold dec_cmp, dec_scaled; rewrite (digits_small _ Ha), (digits_small _ Hb); cbv zeta.
  change (pow10 (Nat.max 1 1)) with 10; change (pow10 (Nat.max 1 1 - 1)) with 1; rewrite !Z.mul_1_r; reflexivity.
Qed.

Lemma float_ltb_one_digit : forall a b : ver, 0 <= snd a < 10 -> 0 <= snd b < 10 -> float_ltb a b = ver_ltb a b.
Proof.
  intros a b Ha Hb; unfold float_ltb, ver_ltb; rewrite dec_cmp_one_digit by lia.
  destruct (Z.compare_spec (fst a * 10 + snd a) (fst b * 10 + snd b)), (fst a <? fst b) eqn:E1, (fst b <? fst a) eqn:E2; lia.
Qed.

Lemma float_eqb_one_digit : forall a b : ver, 0 <= snd a < 10 -> 0 <= snd b < 10 -> float_eqb a b = ver_eqb a b.
Proof.
  intros a b Ha Hb; unfold float_eqb, ver_eqb; rewrite dec_cmp_one_digit by lia.
  destruct (Z.compare_spec (fst a * 10 + snd a) (fst b * 10 + snd b)); lia.
Qed.

Definition one_digit (v : ver) : bool := (0 <=? snd v) && (snd v <? 10).

(* the decorator's test is float(str(v)) < float(str(arg)) (decorator_cmp, regenerated) *)
Lemma decorator_refuses_one_digit : forall v a, one_digit v = true -> one_digit a = true ->
  decorator_refuses v a = ver_ltb v a.
Proof.
  intros v a Hv Ha; unfold one_digit in *; unfold decorator_refuses, decorator_cmp.
  apply float_ltb_one_digit; lia.
Qed.

Lemma decorators_refuse : forall v args, one_digit v = true -> ver_ltb v (0, 0) = false ->
  forallb one_digit args = true ->
  existsb (decorator_refuses v) args = ver_ltb v (fold_right ver_max (0, 0) args).
Proof.
  intros v args Hv H0 Ha; induction args as [|a l IH]; simpl in *; [symmetry; exact H0|].
  apply andb_true_iff in Ha; destruct Ha as [Ha Hl].
  rewrite (decorator_refuses_one_digit v a Hv Ha), ver_ltb_max, (IH Hl); reflexivity.
Qed.

Lemma version_accepted_iff : forall v, version_accepted v = true <-> In v supported_versions.
Proof. intro v; unfold version_accepted; destruct version_check; apply ver_mem_In. Qed.

Lemma version_accepted_false : forall v, ~ In v supported_versions -> version_accepted v = false.
Proof. intros v H; apply not_true_is_false; rewrite version_accepted_iff; exact H. Qed.

Lemma assoc_z_In : forall A (l : list (Z * A)) k a, assoc_z k l = Some a -> In (k, a) l.
Proof.
  induction l as [|[k' a'] l IH]; simpl; intros k a H; [discriminate|].
  destruct (k =? k') eqn:E.
  - inversion H; subst; apply Z.eqb_eq in E; subst; left; reflexivity.
  - right; apply IH; assumption.
Qed.

Lemma assoc_s_In : forall A (l : list (string * A)) k a, assoc_s k l = Some a -> In (k, a) l.
Proof.
  induction l as [|[k' a'] l IH]; simpl; intros k a H; [discriminate|].
  destruct (String.eqb_spec k k') as [->|_]; [injection H as ->; left; reflexivity | right; exact (IH _ _ H)].
Qed.

(* what the argument needs of the regenerated tables: supported versions and decorator arguments have one-digit minors,
   and no supported version is below 0.0 (the value the maximum of an empty decorator stack starts from) *)
Lemma one_digit_tables :
  forallb one_digit supported_versions = true
  /\ forallb (fun v => negb (ver_ltb v (0, 0))) supported_versions = true
  /\ forallb (fun e => forallb one_digit (snd e)) handler_min_versions = true.
Proof. repeat apply conj; vm_compute; reflexivity. Qed.

(* the decorator stack refuses exactly when the version is below the largest decorator argument *)
Lemma gate_char : forall v op, In v supported_versions ->
  match lookup_handler op with
  | None => gate v op = GateUnknownOp /\ op_min_version op = None
  | Some h => exists mv, op_min_version op = Some mv /\
                         gate v op = if ver_ltb v mv then GateVersion h else GateRun h
  end.
Proof.
  intros v op Hv; unfold gate, op_min_version.
  destruct (lookup_handler op) as [h|]; [|split; reflexivity].
  eexists; split; [reflexivity|].
  destruct one_digit_tables as (S & N & D); rewrite forallb_forall in S, N, D.
  rewrite (decorators_refuse v (handler_args h) (S v Hv) (proj1 (negb_true_iff _) (N v Hv))); [reflexivity|].
  unfold handler_args; destruct (assoc_s h handler_min_versions) as [l|] eqn:E; [|reflexivity].
  exact (D _ (assoc_s_In _ _ _ _ E)).
Qed.

(* for a dispatched operation the gate is the comparison with its minimum version *)
Lemma gate_runs_min : forall v op mv, In v supported_versions -> op_min_version op = Some mv ->
  gate_runs v op = ver_leb mv v.
Proof.
  intros v op mv Hv Hm; pose proof (gate_char v op Hv) as G; unfold gate_runs.
  destruct (lookup_handler op) as [h|].
  - destruct G as [mv' [Hm' Hg]]; rewrite Hm in Hm'; injection Hm' as <-.
    rewrite Hg, ver_leb_negb_ltb; destruct (ver_ltb v mv); reflexivity.
  - destruct G as [_ Hn]; rewrite Hn in Hm; discriminate.
Qed.

Lemma gate_refuses_below_min : forall v op mv, In v supported_versions ->
  op_min_version op = Some mv -> ver_ltb v mv = true -> gate_runs v op = false.
Proof. intros v op mv Hv Hm Hlt; rewrite (gate_runs_min v op mv Hv Hm), ver_leb_negb_ltb, Hlt; reflexivity. Qed.

Lemma op_available_gate : forall v op mv, In v supported_versions ->
  op_min_version op = Some mv -> ver_leb mv v = true -> gate_runs v op = true.
Proof. intros v op mv Hv Hm Hle; rewrite (gate_runs_min v op mv Hv Hm); exact Hle. Qed.

(* what is known of an operation the gate lets through *)
Lemma gate_run_inv : forall v op h, In v supported_versions -> gate v op = GateRun h ->
  lookup_handler op = Some h /\ exists mv, op_min_version op = Some mv /\ ver_leb mv v = true.
Proof.
  intros v op h Hv Hg; pose proof (gate_char v op Hv) as G.
  destruct (lookup_handler op) as [h'|].
  - destruct G as [mv [Hm G]]; rewrite G in Hg.
    destruct (ver_ltb v mv) eqn:L; [discriminate|]; injection Hg as ->.
    split; [reflexivity|]; exists mv; split; [assumption|].
    rewrite ver_leb_negb_ltb, L; reflexivity.
  - destruct G as [G _]; rewrite G in Hg; discriminate.
Qed.

Lemma undispatched_gate : forall v op, op_min_version op = None -> gate v op = GateUnknownOp.
Proof.
  intros v op H; unfold op_min_version in H; unfold gate.
  destruct (lookup_handler op); [discriminate | reflexivity].
Qed.

Section EngineProofs.
  Variable St : Type.
  Variable Payload : Type.
  Variable handler : string -> ver -> Payload -> St -> St * outcome.
  Variable known : ver -> bool.

  Notation run_item := (run_item St Payload handler).
  Notation run_batch := (run_batch St Payload handler).
  Notation process_request := (process_request St Payload handler).
  Notation session_handle := (session_handle St Payload handler known).
  Notation session_answer := (session_answer St Payload handler known).

  Definition wire_version (r : wire_response) : ver :=
    match r with WireError hv _ => hv | WireMessage hv _ => hv end.

  (* one item: a refused operation leaves the state alone and enters no handler; an entered handler passed the gate *)
  Lemma run_item_refused : forall v it st, gate_runs v (it_op it) = false ->
    run_item v it st = (st, OutErr R_OPERATION_NOT_SUPPORTED, []).
  Proof.
    intros v it st H; unfold Version.run_item, gate_runs in *.
    destruct (gate v (it_op it)); [discriminate | reflexivity | reflexivity].
  Qed.

  Lemma run_item_trace : forall v it st h, In h (snd (run_item v it st)) -> gate v (it_op it) = GateRun h.
  Proof.
    intros v it st h; unfold Version.run_item.
    destruct (gate v (it_op it)) as [h0| |]; [|contradiction|contradiction].
    destruct (handler h0 v (it_payload it) st); intros [<-|[]]; reflexivity.
  Qed.

  (* all batches, by induction: every handler entered was let through by the gate for an operation of the batch *)
  Lemma run_batch_trace_gated : forall stop v items st h,
    In h (snd (run_batch stop v items st)) ->
    exists it, In it items /\ gate v (it_op it) = GateRun h.
  Proof.
    intros stop v items; induction items as [|it rest IH]; intros st h Hin; simpl in Hin; [contradiction|].
    pose proof (run_item_trace v it st h) as Hit.
    destruct (run_item v it st) as [[st1 o] tr].
    assert (Hhd : In h tr -> exists it0, In it0 (it :: rest) /\ gate v (it_op it0) = GateRun h).
    { intro Hx; exists it; split; [left; reflexivity | exact (Hit Hx)]. }
    destruct (outcome_failed o && stop); [exact (Hhd Hin)|].
    specialize (IH st1 h); destruct (run_batch stop v rest st1) as [[st2 os] tr2].
    apply in_app_or in Hin; destruct Hin as [Hin|Hin]; [exact (Hhd Hin)|].
    destruct (IH Hin) as [it' [Hi Hg]]; exists it'; split; [right|]; assumption.
  Qed.

  Lemma response_version_eq : forall req : request Payload, response_version Payload req = rq_version req.
  Proof. intro req; unfold response_version; destruct response_version_source; reflexivity. Qed.

  (* process_request: a refusal of the whole request touches nothing; an answer carries the request's version, which is
     then a supported one, and is the run of the batch *)
  Lemma process_request_spec : forall (req : request Payload) st,
    match process_request req st with
    | (st', RespRaised _, tr) => st' = st /\ tr = []
    | (st', RespMessage hv os, tr) =>
        hv = rq_version req /\ In (rq_version req) supported_versions /\
        (st', os, tr) = run_batch (rq_stop req) (rq_version req) (rq_items req) st
    end.
  Proof.
    intros req st; unfold Version.process_request.
    destruct (version_accepted (rq_version req)) eqn:A; [|split; reflexivity].
    destruct (rq_header_reject req); [split; reflexivity|].
    destruct (run_batch (rq_stop req) (rq_version req) (rq_items req) st) as [[s o] t].
    split; [apply response_version_eq | split; [apply version_accepted_iff; assumption | reflexivity]].
  Qed.

  Lemma unsupported_refused_engine : forall (req : request Payload) st,
    ~ In (rq_version req) supported_versions ->
    process_request req st = (st, RespRaised R_INVALID_MESSAGE, []).
  Proof.
    intros req st H; unfold Version.process_request; rewrite (version_accepted_false _ H); reflexivity.
  Qed.

  Lemma version_echo_engine : forall (req : request Payload) st,
    In (rq_version req) supported_versions -> rq_header_reject req = None ->
    exists st' os tr, process_request req st = (st', RespMessage (rq_version req) os, tr).
  Proof.
    intros req st H Hr; unfold Version.process_request.
    apply version_accepted_iff in H; rewrite H, Hr, (response_version_eq req).
    destruct (run_batch (rq_stop req) (rq_version req) (rq_items req) st) as [[st' os] tr].
    exists st', os, tr; reflexivity.
  Qed.

  Lemma process_request_trace_gated : forall (req : request Payload) st h,
    In h (snd (process_request req st)) ->
    In (rq_version req) supported_versions /\
    exists it, In it (rq_items req) /\ gate (rq_version req) (it_op it) = GateRun h.
  Proof.
    intros req st h Hin; pose proof (process_request_spec req st) as P.
    destruct (process_request req st) as [[st' [r|hv os]] tr]; simpl in Hin.
    - destruct P as [_ ->]; contradiction.
    - destruct P as (_ & Hv & E); split; [assumption|].
      apply (run_batch_trace_gated (rq_stop req) _ _ st); rewrite <- E; assumption.
  Qed.

  (* every answer that reaches a client who spoke a version the codec knows carries that version, error or not *)
  Lemma version_echo_session : forall (req : request Payload) st, known (rq_version req) = true ->
    wire_version (snd (fst (session_handle req st))) = rq_version req.
  Proof.
    intros req st Hk; pose proof (process_request_spec req st) as P; unfold Version.session_handle; rewrite Hk.
    destruct (process_request req st) as [[st' [r|hv os]] tr], (rq_items req); try reflexivity; exact (proj1 P).
  Qed.

  (* every answer path after decoding carries the request's version *)
  Lemma version_echo_all_paths : forall f (req : request Payload) st, known (rq_version req) = true ->
    wire_version (snd (fst (session_answer f req st))) = rq_version req.
  Proof.
    intros f req st Hk; unfold Version.session_answer.
    assert (D : request_decodes Payload known req = true).
    { unfold request_decodes; destruct (rq_items req); [reflexivity | assumption]. }
    rewrite D; simpl.
    pose proof (version_echo_session req st Hk) as E.
    destruct f.
    - exact E.
    - reflexivity.
    - reflexivity.
    - (* the error keeps the header session_handle gave its answer *)
      destruct (session_handle req st) as [[s [hv r|hv os]] t]; exact E.
    - (* the error is rebuilt from the request's header *)
      destruct (session_handle req st) as [[s [hv r|hv os]] t]; [exact E | reflexivity].
  Qed.
End EngineProofs.

Lemma query_ops_run : forall v op, In v supported_versions -> In op (query_ops v) -> gate_runs v op = true.
Proof.
  assert (Q : forallb (fun v => forallb (gate_runs v) (query_ops v)) supported_versions = true) by (vm_compute; reflexivity).
  intros v op Hv Hop; rewrite forallb_forall in Q; specialize (Q v Hv); rewrite forallb_forall in Q; exact (Q op Hop).
Qed.

Definition newer (a b : ver) : Prop := ver_ltb b a = true.

Lemma supported_sorted : StronglySorted newer supported_versions.
Proof.
  unfold supported_versions.
  repeat (apply SSorted_cons; [|repeat (apply Forall_cons; [vm_compute; reflexivity|]); apply Forall_nil]).
  apply SSorted_nil.
Qed.

Lemma filter_sorted : forall A (R : A -> A -> Prop) f l, StronglySorted R l -> StronglySorted R (filter f l).
Proof.
  intros A R f l H; induction H as [|a l Hs IH Hf]; simpl; [constructor|].
  destruct (f a); [|assumption].
  constructor; [assumption|].
  rewrite Forall_forall in *; intros x Hx; apply filter_In in Hx; apply Hf; tauto.
Qed.

Lemma discover_In : forall client v,
  In v (discover client) <-> In v supported_versions /\ (client = [] \/ In v client).
Proof.
  intros [|c cs] v; unfold discover; [tauto|].
  rewrite filter_In, ver_mem_In; split; [tauto|].
  intros [H [N|Hc]]; [discriminate | split; assumption].
Qed.

Lemma discover_sorted : forall client, StronglySorted newer (discover client).
Proof. intros [|c cs]; [|apply filter_sorted]; apply supported_sorted. Qed.

Lemma attr_supported_spec : forall v n, attr_supported v n = true <->
  exists r, find_rule n = Some r /\ ver_leb (ar_version_added r) v = true.
Proof.
  intros v n; unfold attr_supported; destruct (find_rule n) as [r|]; split.
  - intro H; exists r; split; [reflexivity | rewrite ver_leb_geb; assumption].
  - intros [r' [E H]]; inversion E; subst; rewrite <- ver_leb_geb; assumption.
  - discriminate.
  - intros [r' [E _]]; discriminate.
Qed.

Lemma attr_later_unsupported : forall v n r, find_rule n = Some r -> ver_ltb v (ar_version_added r) = true ->
  attr_supported v n = false.
Proof. intros v n r E H; unfold attr_supported; rewrite E, ver_geb_negb_ltb, H; reflexivity. Qed.

Lemma attr_unknown_unsupported : forall v n, find_rule n = None -> attr_supported v n = false.
Proof. intros v n E; unfold attr_supported; rewrite E; reflexivity. Qed.

Lemma template_gate_refuses : forall v names n, In n names -> attr_supported v n = false ->
  exists m, template_gate v names = Some m /\ In m names /\ attr_supported v m = false.
Proof.
  intros v names n Hin Hn; unfold template_gate.
  destruct (find (fun n0 => negb (attr_supported v n0)) names) as [m|] eqn:F.
  - apply find_some in F; destruct F as [F1 F2]; exists m; split; [reflexivity|split; [assumption|]].
    apply negb_true_iff; assumption.
  - pose proof (find_none _ _ F n Hin) as N; simpl in N; rewrite Hn in N; discriminate.
Qed.

Lemma template_gate_passes : forall v names, template_gate v names = None ->
  forall n, In n names -> attr_supported v n = true.
Proof. intros v names F n Hin; apply negb_false_iff; exact (find_none _ _ F n Hin). Qed.

(* the walk of _process_template_attribute, one position: the head fails the version gate and is named; or it passes
   and either a multiplicity rule stops the walk or the walk goes on behind it *)
Lemma template_walk_step : forall v seen (it : tmpl_item) rest,
  (attr_supported v (ti_name it) = false /\ template_walk v seen (it :: rest) = TUnsupported (ti_name it)) \/
  (attr_supported v (ti_name it) = true /\
   (template_walk v seen (it :: rest) = TOther \/
    template_walk v seen (it :: rest) = template_walk v (ti_name it :: seen) rest)).
Proof.
  intros v seen [[n hi] nz] rest; unfold ti_name; simpl.
  destruct (attr_supported v n); [right | left]; split; trivial; simpl.
  destruct (attr_multivalued n).
  - destruct (negb hi && existsb (String.eqb n) seen); auto.
  - destruct (hi && nz); [auto|]; destruct (existsb (String.eqb n) seen); auto.
Qed.

(* any attribute the version does not have makes the template fail (with the version error, or with the multiplicity
   error of an earlier position); a version error names an attribute of the template that the version does not have,
   namely the first one *)
Lemma template_walk_rejects : forall v items seen n, In n (map ti_name items) -> attr_supported v n = false ->
  template_walk v seen items <> TOk.
Proof.
  intros v items; induction items as [|it rest IH]; intros seen n Hin Hn; [contradiction|].
  destruct (template_walk_step v seen it rest) as [[_ E]|[Sm [E|E]]]; rewrite E; try discriminate.
  apply (IH _ n); [|assumption].
  destruct Hin as [E'|H]; [|assumption]; rewrite E', Hn in Sm; discriminate.
Qed.

Lemma template_walk_unsupported : forall v items seen m, template_walk v seen items = TUnsupported m ->
  In m (map ti_name items) /\ attr_supported v m = false /\ template_gate v (map ti_name items) = Some m.
Proof.
  intros v items; induction items as [|it rest IH]; intros seen m H; [discriminate|].
  unfold template_gate; simpl map; simpl find.
  destruct (template_walk_step v seen it rest) as [[Sn E]|[Sn [E|E]]]; rewrite E in H; rewrite Sn; simpl.
  - injection H as <-; split; [left; reflexivity | split; [assumption | reflexivity]].
  - discriminate.
  - destruct (IH _ _ H) as [A [B C]]; split; [right; assumption | split; assumption].
Qed.

Lemma reported_sound : forall v held cands n, In n (reported v held cands) ->
  In n cands /\ held n = true /\
  exists r, find_rule n = Some r /\ ver_leb (ar_version_added r) v = true /\
            (forall d, ar_version_deprecated r = Some d -> ver_ltb v d = true).
Proof.
  intros v held cands n H; unfold reported in H; apply filter_In in H; destruct H as [H1 H2].
  apply andb_true_iff in H2; destruct H2 as [H2 H3]; apply andb_true_iff in H2; destruct H2 as [H2 H4].
  split; [assumption|split; [assumption|]].
  apply attr_supported_spec in H2; destruct H2 as [r [E Hle]]; exists r; split; [assumption|split; [assumption|]].
  intros d Hd; unfold attr_deprecated in H4; rewrite E, Hd, ver_geb_negb_ltb, negb_involutive in H4; exact H4.
Qed.

(* gated names of the regenerated attribute table *)
Lemma sensitive_gated : attr_supported (1, 3) "Sensitive" = false /\ attr_supported (1, 4) "Sensitive" = true
  /\ attr_deprecated (2, 0) "Operation Policy Name" = true /\ attr_deprecated (1, 4) "Operation Policy Name" = false.
Proof. repeat apply conj; vm_compute; reflexivity. Qed.

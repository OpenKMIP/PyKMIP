(* C20 - proofs about the fragment model (Frag.v).  Conversion of a site to fragments fails exactly on a
   secret-bearing or unrecognised part; the text of every well-formed emission is [secret_free]: a concatenation of
   literals of an observable site and of arguments inside their class languages; so is every history and every
   case the comparator accepts.  Then the remainder and wire-echo lists of a table, the log-level thresholds, and
   a small table for the examples.  Plain stdlib, closed under the global context. *)
From Coq Require Import ZArith List Bool String Ascii.
From PK Require Import Logs.Frag.
Import ListNotations.
Open Scope string_scope.

Definition is_secretish (aw : bool) (p : sclass) : bool :=
  match p with SSecret _ | SUnknown _ => true | SWire => negb aw | _ => false end.

Lemma to_frag_none_iff : forall aw pk p, to_frag aw pk p = None <-> is_secretish aw p = true.
Proof. intros aw pk p; destruct p; destruct aw; simpl; split; intro H; try discriminate; reflexivity. Qed.

(* conversion of a site fails exactly on a secret-bearing or unrecognised part *)
Lemma to_frags_none_iff : forall aw pk ps, to_frags aw pk ps = None <-> existsb (is_secretish aw) ps = true.
Proof.
  intros aw pk ps; induction ps as [|p r IH]; simpl.
  - split; discriminate.
  - rewrite orb_true_iff, <- IH, <- (to_frag_none_iff aw pk p).
    destruct (to_frag aw pk p), (to_frags aw pk r); intuition congruence.
Qed.

Lemma to_frags_secret_none : forall aw pk ps, existsb (is_secretish aw) ps = true -> to_frags aw pk ps = None.
Proof. intros aw pk ps. apply to_frags_none_iff. Qed.

Lemma to_frags_some_clean : forall aw pk ps fs,
  to_frags aw pk ps = Some fs -> existsb (is_secretish aw) ps = false.
Proof.
  intros aw pk ps fs H. apply not_true_is_false. intros E. apply (to_frags_none_iff aw pk) in E. congruence.
Qed.

(* A fragment list never mentions a secret-bearing expression: there is nothing to prove - the type
   [frag] has no such constructor.  What is left is that conversion of a site succeeds. *)
Lemma site_ok_frags : forall aw pk s,
  site_ok aw pk s = true -> observable (s_kind s) = true -> exists fs, to_frags aw pk (s_parts s) = Some fs.
Proof.
  intros aw pk s H Hobs. unfold site_ok in H. rewrite Hobs in H.
  destruct (to_frags aw pk (s_parts s)); [eauto|discriminate].
Qed.

Lemma site_ok_no_secret_part : forall aw pk s,
  site_ok aw pk s = true -> observable (s_kind s) = true -> existsb (is_secretish aw) (s_parts s) = false.
Proof.
  intros aw pk s H Hobs. destruct (site_ok_frags aw pk s H Hobs) as [fs Hfs].
  exact (to_frags_some_clean aw pk _ fs Hfs).
Qed.

Lemma render_eq : forall fs args,
  render fs args = option_map (fun ps => concat_str (map piece_text ps)) (pieces fs args).
Proof.
  induction fs as [|[s| |c] r IH]; intros args; simpl.
  - destruct args; reflexivity.
  - rewrite IH. destruct (pieces r args); reflexivity.
  - reflexivity.
  - destruct args as [|a ar]; [reflexivity|]. rewrite IH. destruct (pieces r ar); reflexivity.
Qed.

Definition piece_ok (p : piece) : bool := match p with PLit _ => true | PArg c a => arg_ok c a end.

Definition piece_of (fs : list frag) (p : piece) : Prop :=
  match p with PLit s => In (FLit s) fs | PArg c _ => In (FArg c) fs end.

Lemma pieces_of_cons : forall f fs ps, Forall (piece_of fs) ps -> Forall (piece_of (f :: fs)) ps.
Proof. intros f fs ps. apply Forall_impl. intros [s|c a]; simpl; auto. Qed.

(* arguments inside their languages split into pieces, each a literal or a checked argument of its fragment *)
Lemma args_ok_pieces : forall fs args, args_ok fs args = true ->
  exists ps, pieces fs args = Some ps /\ Forall (piece_of fs) ps /\ forallb piece_ok ps = true.
Proof.
  induction fs as [|[s| |c] r IH]; intros args H; simpl in *.
  - destruct args; [|discriminate]. exists []. auto.
  - destruct (IH _ H) as [ps [E [F O]]]. rewrite E. exists (PLit s :: ps).
    split; [reflexivity|]. split; [|exact O].
    constructor; [left; reflexivity|apply pieces_of_cons, F].
  - discriminate.
  - destruct args as [|a ar]; [discriminate|]. apply andb_true_iff in H. destruct H as [Ha Hr].
    destruct (IH _ Hr) as [ps [E [F O]]]. rewrite E. exists (PArg c a :: ps).
    split; [reflexivity|]. split; [|simpl; rewrite Ha; exact O].
    constructor; [left; reflexivity|apply pieces_of_cons, F].
Qed.

(* [t] is the concatenation of literal pieces of an observable site of the table and of arguments of
   non-secret classes (the only classes there are), each inside the language of its class. *)
Definition secret_free (pk : list string) (tbl : list site) (t : string) : Prop :=
  exists s fs ps,
    In s tbl /\ observable (s_kind s) = true /\ to_frags true pk (s_parts s) = Some fs /\
    existsb (is_secretish true) (s_parts s) = false /\
    Forall (piece_of fs) ps /\ forallb piece_ok ps = true /\
    t = concat_str (map piece_text ps).

Theorem wf_event_secret_free : forall pk tbl e,
  wf_event pk tbl e = true -> exists t, event_text pk tbl e = Some t /\ secret_free pk tbl t.
Proof.
  intros pk tbl e H. unfold wf_event in H.
  rewrite !andb_true_iff, Nat.ltb_lt in H. destruct H as [Hlt [Hobs H]].
  unfold event_text.
  destruct (to_frags true pk (s_parts (nth (ev_site e) tbl dummy_site))) as [fs|] eqn:Efs; [|discriminate].
  destruct (args_ok_pieces _ _ H) as [ps [Hps [Hof Hok]]].
  rewrite render_eq, Hps. eexists. split; [reflexivity|].
  exists (nth (ev_site e) tbl dummy_site), fs, ps.
  repeat split; try assumption; [apply nth_In, Hlt|exact (to_frags_some_clean _ _ _ _ Efs)].
Qed.

(* All histories: a run of the model is the list of its emissions. *)
Theorem run_secret_free : forall pk tbl (h : list event),
  forallb (wf_event pk tbl) h = true ->
  Forall (fun e => exists t, event_text pk tbl e = Some t /\ secret_free pk tbl t) h.
Proof.
  intros pk tbl h H. rewrite forallb_forall in H. apply Forall_forall.
  intros e He. apply wf_event_secret_free, H, He.
Qed.

(* With the table obligation, well-formedness of an emission is only about its arguments. *)
Theorem table_safe_event_wf : forall pk tbl,
  forallb (site_ok true pk) tbl = true ->
  forall e, (ev_site e < List.length tbl)%nat ->
    observable (s_kind (nth (ev_site e) tbl dummy_site)) = true ->
    (forall fs, to_frags true pk (s_parts (nth (ev_site e) tbl dummy_site)) = Some fs -> args_ok fs (ev_args e) = true) ->
    wf_event pk tbl e = true.
Proof.
  intros pk tbl Htbl e Hlt Hobs Hargs. unfold wf_event.
  rewrite (proj2 (Nat.ltb_lt _ _) Hlt), Hobs. simpl.
  rewrite forallb_forall in Htbl.
  destruct (site_ok_frags true pk _ (Htbl _ (nth_In tbl dummy_site Hlt)) Hobs) as [fs Hfs].
  rewrite Hfs. apply Hargs, Hfs.
Qed.

(* The comparator of tie K accepts only secret-free texts. *)
Theorem check_case_sound : forall pk tbl c, check_case pk tbl c = true -> secret_free pk tbl (c_text c).
Proof.
  intros pk tbl c H. unfold check_case in H.
  rewrite !andb_true_iff in H. destruct H as [[[Hwf _] _] Htext].
  destruct (wf_event_secret_free _ _ _ Hwf) as [t [Ht Hsf]].
  rewrite Ht in Htext. apply String.eqb_eq in Htext. subst. exact Hsf.
Qed.

(* [m] is the caller's bound; [n <=? m] is closed by evaluation there *)
Lemma closed_text_bounds : forall al n a m, closed_text al n a = true -> (n <=? m)%nat = true ->
  (max_run hexchars a < 24)%nat /\ (String.length a <= m)%nat.
Proof.
  intros al n a m H Hm. unfold closed_text in H. rewrite !andb_true_iff in H. destruct H as [[_ Hl] Hr].
  split; [apply Nat.ltb_lt, Hr|]. apply Nat.leb_le in Hl, Hm. exact (Nat.le_trans _ _ _ Hl Hm).
Qed.

Definition remainder_of (pk : list string) (tbl : list site) : list (string * string) :=
  map (fun s => (s_file s, s_func s)) (filter (fun s => negb (site_ok_strict true pk s)) tbl).

Definition wire_sites_of (tbl : list site) : list (string * string) :=
  map (fun s => (s_file s, s_func s)) (filter (fun s => observable (s_kind s) && has_wire s) tbl).

Lemma strict_implies_ok : forall aw pk s, site_ok_strict aw pk s = true -> site_ok aw pk s = true.
Proof.
  intros aw pk s H. unfold site_ok_strict, site_ok in *.
  destruct (negb (observable (s_kind s))); simpl in *; auto.
  destruct (to_frags aw pk (s_parts s)); auto.
Qed.

(* without the wire echo the two claims coincide *)
Lemma to_frags_no_wire : forall pk ps,
  existsb (fun p => match p with SWire => true | _ => false end) ps = false -> to_frags false pk ps = to_frags true pk ps.
Proof.
  intros pk ps; induction ps as [|p r IH]; intro H; simpl in *; auto.
  apply orb_false_iff in H. destruct H as [Hp Hr]. rewrite (IH Hr).
  destruct p; simpl in *; try reflexivity. discriminate.
Qed.

Theorem no_wire_full_strength : forall pk s, has_wire s = false -> site_ok false pk s = site_ok true pk s.
Proof. intros pk s H. unfold site_ok. rewrite (to_frags_no_wire pk _ H). reflexivity. Qed.

(* Outside the remainder, every fragment of an observable site is of a modelled class. *)
Theorem outside_remainder_strict : forall pk tbl s,
  In s tbl -> ~ In (s_file s, s_func s) (remainder_of pk tbl) -> site_ok_strict true pk s = true.
Proof.
  intros pk tbl s Hin Hnot. apply not_false_iff_true. intros E. apply Hnot.
  apply (in_map (fun s => (s_file s, s_func s))), filter_In. rewrite E. auto.
Qed.

Lemma observable_is_info_threshold : forall k, observable k = observable_at 20 k.
Proof. intros k; destruct k as [l| | | |]; try reflexivity; destruct l; reflexivity. Qed.

(* raising the threshold only removes records *)
Lemma observable_at_le : forall t1 t2 k, (t1 <= t2)%Z -> observable_at t2 k = true -> observable_at t1 k = true.
Proof.
  intros t1 t2 k Ht. destruct k as [l| | | |]; simpl; auto.
  unfold written_at. rewrite !Z.leb_le. apply Z.le_trans, Ht.
Qed.

(* a threshold at or above INFO writes nothing that the model calls unobservable *)
Lemma observable_at_mono : forall t k, (20 <= t)%Z -> observable_at t k = true -> observable k = true.
Proof. intros t k Ht. rewrite observable_is_info_threshold. apply observable_at_le, Ht. Qed.

(* ... and a threshold below INFO does write debug records *)
Lemma below_info_writes_debug : forall t, (t <= 10)%Z -> observable_at t (KLog LDebug) = true.
Proof. intros t Ht. apply (observable_at_le t 10); [exact Ht|reflexivity]. Qed.

Definition demo_pk := ["KmipError"; "ItemNotFound"; "PermissionDenied"].
Definition demo_sites : list site := [
  mkSite "engine.py" 460 462 "KmipEngine._get_object_type" (KRaise true) "exceptions.ItemNotFound"
         [SLit "Could not locate object: "; SUid];
  mkSite "engine.py" 2007 2012 "KmipEngine._process_register" (KLog LInfo) "self._logger"
         [SLit "Registered a "; STypeName; SLit " with ID: "; SUid];
  mkSite "session.py" 356 358 "KmipSession._receive_bytes" (KLog LDebug) "self._logger"
         [SLit "Request encoding: "; SSecret "binascii.hexlify(message)"];
  mkSite "engine.py" 413 413 "KmipEngine._process_batch" (KLog LException) "self._logger" [SExc ["Exception"]];
  mkSite "engine.py" 408 408 "KmipEngine._process_batch" KResultMsg "result_message" [SExc ["KmipError"]]
].
Definition demo_bad : site :=
  mkSite "engine.py" 1 1 "f" (KLog LInfo) "self._logger" [SLit "key: "; SSecret "key_bytes"].

Definition demo_wire : site :=
  mkSite "primitives.py" 56 61 "Base.read_tag" (KRaise true) "exceptions.ReadValueError" [STypeName; SLit "tag"; SWire; SWire].
Example demo_wire_partial : site_ok true demo_pk demo_wire = true /\ site_ok false demo_pk demo_wire = false.
Proof. vm_compute. split; reflexivity. Qed.

Example demo_table_ok : forallb (site_ok false demo_pk) demo_sites = true.
Proof. vm_compute. reflexivity. Qed.
Example demo_bad_rejected : site_ok true demo_pk demo_bad = false.
Proof. vm_compute. reflexivity. Qed.
Example demo_promoted_debug_rejected :
  site_ok true demo_pk (mkSite "session.py" 356 358 "KmipSession._receive_bytes" (KLog LInfo) "self._logger"
                          [SLit "Request encoding: "; SSecret "binascii.hexlify(message)"]) = false.
Proof. vm_compute. reflexivity. Qed.
Example demo_remainder : remainder_of demo_pk demo_sites = [("engine.py", "KmipEngine._process_batch")].
Proof. vm_compute. reflexivity. Qed.
Example demo_event :
  wf_event demo_pk demo_sites (mkEvent 1 ["SymmetricKey"; "7"]) = true /\
  event_text demo_pk demo_sites (mkEvent 1 ["SymmetricKey"; "7"]) = Some "Registered a SymmetricKey with ID: 7".
Proof. vm_compute. split; reflexivity. Qed.
Example demo_hex_in_typename_rejected :
  wf_event demo_pk demo_sites (mkEvent 1 ["00112233445566778899aabbccddeeff"; "7"]) = false.
Proof. vm_compute. reflexivity. Qed.
Example demo_case :
  check_case demo_pk demo_sites (mkCase 0 "engine.py" 461 ["abc"] "Could not locate object: abc") = true.
Proof. vm_compute. reflexivity. Qed.
Example demo_case_wrong_text :
  check_case demo_pk demo_sites (mkCase 0 "engine.py" 461 ["abc"] "Could not locate object: abd") = false.
Proof. vm_compute. reflexivity. Qed.

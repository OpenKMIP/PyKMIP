(* C07 proofs.  An identifier u is live when `In u (uids st)`, the proposition behind Model.live.  All one operation
   can do is `effect` (step_item_effect: start here for a new property of step_item); successive step_item calls
   are `chain st es st'`, reached from batches by run_items_ind and from histories by history_chain (start here for
   a new property of histories).  The allocator invariant `Inv` and freshness go along a chain through
   `grows st log st'` (what issuing the identifiers of log and removing objects does to a store); the death of
   destroyed identifiers (`Dead`, chain_dead) rests on a dead identifier lying below the allocator. *)
From PK Require Import Uid.Model.
From Coq Require Import ZArith List Bool Lia ZifyBool Sorted.
Import ListNotations.
Open Scope Z_scope.

Lemma incl_firstn : forall (A : Type) n (l : list A), incl (firstn n l) l.
Proof. intros A n l x H. rewrite <- (firstn_skipn n l). apply in_or_app; auto. Qed.

Lemma incl_skipn : forall (A : Type) n (l : list A), incl (skipn n l) l.
Proof. intros A n l x H. rewrite <- (firstn_skipn n l). apply in_or_app; auto. Qed.

Lemma SSorted_filter : forall (f : Z -> bool) l, StronglySorted Z.lt l -> StronglySorted Z.lt (filter f l).
Proof.
  induction 1 as [|x l S IH F]; simpl; [constructor|].
  destruct (f x); auto. constructor; auto. apply (incl_Forall (incl_filter f l) F).
Qed.

Lemma SSorted_NoDup : forall l, StronglySorted Z.lt l -> NoDup l.
Proof.
  induction 1 as [|x l S IH F]; constructor; auto.
  intro Hin. apply (proj1 (Forall_forall _ _) F) in Hin. lia.
Qed.

Lemma SSorted_app : forall l1 l2, StronglySorted Z.lt l1 -> StronglySorted Z.lt l2 ->
  (forall x y, In x l1 -> In y l2 -> x < y) -> StronglySorted Z.lt (l1 ++ l2).
Proof.
  induction l1 as [|a l1 IH]; simpl; intros l2 H1 H2 H; auto.
  inversion H1; subst. constructor.
  - apply IH; auto.
  - apply Forall_app; split; auto. rewrite Forall_forall. intros y Hy. apply H; auto.
Qed.

(* consec a l b: l = [a; a+1; ...; b-1] *)
Inductive consec : Z -> list Z -> Z -> Prop :=
| consec_nil : forall a, consec a [] a
| consec_cons : forall a l b, consec (a + 1) l b -> consec a (a :: l) b.

Lemma consec_le : forall a l b, consec a l b -> a <= b.
Proof. induction 1; lia. Qed.

Lemma consec_app : forall a l1 b l2 c, consec a l1 b -> consec b l2 c -> consec a (l1 ++ l2) c.
Proof. induction 1; simpl; intros; auto. constructor; auto. Qed.

Lemma consec_In : forall a l b, consec a l b -> forall x, In x l -> a <= x < b.
Proof.
  induction 1 as [|a l b C IH]; intros x Hx; [destruct Hx|]. destruct Hx as [<-|Hx].
  - apply consec_le in C. lia.
  - apply IH in Hx. lia.
Qed.

Lemma consec_sorted : forall a l b, consec a l b -> StronglySorted Z.lt l.
Proof.
  induction 1 as [|a l b C IH]; constructor; auto.
  apply Forall_forall. intros x Hx. apply (consec_In _ _ _ C) in Hx. lia.
Qed.

Lemma consec_length : forall a l b, consec a l b -> b = a + Z.of_nat (length l).
Proof. induction 1; simpl length; lia. Qed.

(* NoDup is implied by the strict order (inv_intro); it is a conjunct because the property speaks of it *)
Definition Inv (st : store) : Prop :=
  NoDup (uids st) /\ Forall (fun u => 0 < u < next_uid st) (uids st) /\ StronglySorted Z.lt (uids st) /\ 0 < next_uid st.

Lemma inv_bound : forall st u, Inv st -> In u (uids st) -> 0 < u < next_uid st.
Proof. intros st u (_ & B & _). apply (proj1 (Forall_forall _ _) B). Qed.

Lemma inv_intro : forall st, StronglySorted Z.lt (uids st) ->
  (forall u, In u (uids st) -> 0 < u < next_uid st) -> 0 < next_uid st -> Inv st.
Proof. intros st S B P. repeat split; auto using SSorted_NoDup. apply Forall_forall, B. Qed.

Lemma inv_init : Inv init_store.
Proof. apply inv_intro; [constructor | intros u [] | reflexivity]. Qed.

Lemma find_obj_some : forall u st o, find_obj u st = Some o -> In o (objs st) /\ uid o = u.
Proof. intros u st o H. apply find_some in H. rewrite Z.eqb_eq in H. exact H. Qed.

Lemma find_obj_in_uids : forall u st o, find_obj u st = Some o -> In u (uids st).
Proof. intros u st o H. apply find_obj_some in H. destruct H as [H <-]. apply in_map, H. Qed.

Lemma find_obj_none : forall u st, ~ In u (uids st) -> find_obj u st = None.
Proof.
  intros u st H. destruct (find_obj u st) eqn:E; auto. exfalso. apply H. eapply find_obj_in_uids; eauto.
Qed.

Lemma access_absent : forall who p u st, ~ In u (uids st) -> access who p (Some u) st = ANotFound.
Proof. intros. unfold access. rewrite find_obj_none; auto. Qed.

Lemma access_ok_in : forall who p tgt st o, access who p tgt st = AOk o -> tgt = Some (uid o) /\ In (uid o) (uids st).
Proof.
  unfold access. intros who p tgt st o H. destruct tgt as [u|]; [|discriminate].
  destruct (find_obj u st) as [o'|] eqn:E; [|discriminate].
  destruct (permitted who p o'); inversion H; subst.
  pose proof (find_obj_in_uids _ _ _ E). apply find_obj_some in E. destruct E as [_ <-]. auto.
Qed.

Lemma check_bases_absent : forall who st u bases, ~ In u (uids st) -> In u bases -> check_bases who st bases <> BOk.
Proof.
  induction bases as [|b bs IH]; intros D Hin; [destruct Hin|].
  cbn [check_bases]. destruct Hin as [->|Hin].
  - rewrite access_absent; auto. discriminate.
  - destruct (access who PGet (Some b) st); try discriminate. auto.
Qed.

Lemma uids_remove : forall u st, uids (remove_obj u st) = filter (fun x => negb (x =? u)) (uids st).
Proof.
  intros. unfold remove_obj, uids; simpl. induction (objs st) as [|o l IH]; simpl; auto.
  destruct (uid o =? u); simpl; rewrite IH; auto.
Qed.

Lemma not_in_remove : forall u st, ~ In u (uids (remove_obj u st)).
Proof.
  intros u st H. rewrite uids_remove in H. apply filter_In in H. destruct H as [_ H].
  rewrite Z.eqb_refl in H. discriminate.
Qed.

Lemma In_remove_obj : forall o u st, In o (objs (remove_obj u st)) <-> In o (objs st) /\ uid o <> u.
Proof. intros. unfold remove_obj; simpl. rewrite filter_In, negb_true_iff, Z.eqb_neq. reflexivity. Qed.

Lemma find_obj_remove_other : forall u v st, v <> u -> find_obj v (remove_obj u st) = find_obj v st.
Proof.
  intros u v st Hn. unfold find_obj, remove_obj; simpl. induction (objs st) as [|o l IH]; simpl; auto.
  destruct (uid o =? u) eqn:E1; simpl; destruct (uid o =? v) eqn:E2; auto. lia.
Qed.

Lemma access_remove_other : forall who p tgt u st, tgt <> Some u -> access who p tgt (remove_obj u st) = access who p tgt st.
Proof.
  intros who p [v|] u st Hn; [|reflexivity]. unfold access. rewrite find_obj_remove_other; congruence.
Qed.

Lemma uids_add_one : forall who t st, uids (snd (add_one who t st)) = uids st ++ [next_uid st].
Proof. intros. unfold add_one, uids; simpl. apply map_app. Qed.

Lemma uids_add_objs : forall who ts st ids st', add_objs who ts st = (ids, st') -> uids st' = uids st ++ ids.
Proof.
  induction ts as [|t ts IH]; simpl; intros st ids st' H.
  - inversion H; subst. symmetry. apply app_nil_r.
  - destruct (add_objs who ts _) as [ids2 st2] eqn:E. inversion H; subst.
    rewrite (IH _ _ _ E). change (next_uid st :: ids2) with ([next_uid st] ++ ids2).
    rewrite app_assoc. f_equal. apply uids_add_one.
Qed.

Lemma last_id_in : forall ids x, last_id ids = Some x -> In x ids.
Proof.
  unfold last_id. intros ids x H. destruct (rev ids) as [|y l] eqn:E; inversion H; subst.
  apply in_rev. rewrite E. left; auto.
Qed.

(* grows st log st': next_uid advances exactly over log, the invariant survives, and st' holds no
   identifier that is neither in st nor in log *)
Definition grows (st : store) (log : list Z) (st' : store) : Prop :=
  consec (next_uid st) log (next_uid st') /\
  (Inv st -> Inv st') /\
  (forall x, In x (uids st') -> In x (uids st) \/ In x log).

Lemma grows_consec : forall st log st', grows st log st' -> consec (next_uid st) log (next_uid st').
Proof. intros st log st' G. apply G. Qed.

Lemma grows_inv : forall st log st', grows st log st' -> Inv st -> Inv st'.
Proof. intros st log st' G. apply G. Qed.

Lemma grows_refl : forall st, grows st [] st.
Proof. intros. split; [apply consec_nil|split]; auto. Qed.

Lemma grows_trans : forall a l1 b l2 c, grows a l1 b -> grows b l2 c -> grows a (l1 ++ l2) c.
Proof.
  intros a l1 b l2 c (C1 & I1 & U1) (C2 & I2 & U2). split; [eapply consec_app; eauto|split; auto].
  intros x Hx. rewrite in_app_iff. destruct (U2 x Hx) as [H|H]; [destruct (U1 x H)|]; auto.
Qed.

Lemma grows_fresh : forall st log st' i, Inv st -> grows st log st' -> In i log ->
  next_uid st <= i < next_uid st' /\ ~ In i (uids st).
Proof.
  intros st log st' i HI (C & _) Hi. apply (consec_In _ _ _ C) in Hi. split; auto.
  intro Hin. apply (inv_bound _ _ HI) in Hin. lia.
Qed.

Lemma add_one_grows : forall who t st, grows st [next_uid st] (snd (add_one who t st)).
Proof.
  intros who t st. split; [|split].
  - repeat constructor.
  - intros HI. pose proof (fun u => inv_bound st u HI) as B. assert (P : 0 < next_uid st) by apply HI.
    apply inv_intro; rewrite ?uids_add_one; simpl next_uid; [| |lia].
    + apply SSorted_app; [apply HI | repeat constructor |]. intros x y Hx [<-|[]]. apply B, Hx.
    + intros u Hu. apply in_app_iff in Hu. destruct Hu as [Hu|[<-|[]]]; [apply B in Hu|]; lia.
  - intros x. rewrite uids_add_one. apply in_app_iff.
Qed.

(* add_objs hands out exactly next_uid, next_uid+1, ... *)
Lemma add_objs_grows : forall who ts st ids st', add_objs who ts st = (ids, st') -> grows st ids st'.
Proof.
  induction ts as [|t ts IH]; simpl; intros st ids st' H.
  - inversion H; subst. apply grows_refl.
  - destruct (add_objs who ts _) as [ids2 st2] eqn:E. inversion H; subst.
    exact (grows_trans _ _ _ _ _ (add_one_grows who t st) (IH _ _ _ E)).
Qed.

Lemma remove_grows : forall u st, grows st [] (remove_obj u st).
Proof.
  intros u st. pose proof (incl_filter (fun x => negb (x =? u)) (uids st)) as Sub.
  split; [apply consec_nil|split].
  - intros HI. apply inv_intro; rewrite ?uids_remove; simpl next_uid.
    + apply SSorted_filter, HI.
    + intros x Hx. apply (inv_bound _ _ HI), Sub, Hx.
    + apply HI.
  - intros x Hx. rewrite uids_remove in Hx. auto.
Qed.

Definition listed_of (r : resp) : list Z := match r with RLocated ids => ids | _ => [] end.

(* All an operation can do.  It answers and leaves store and placeholder alone, issuing nothing and
   listing only identifiers of the store; or it adds objects and moves the placeholder to the last
   one; or it removes an object of the store. *)
Inductive effect (who : Z) (st : store) (ph : option Z) : resp * store * option Z -> Prop :=
| eff_none : forall r, issued_of r = [] -> incl (listed_of r) (uids st) -> effect who st ph (r, st, ph)
| eff_add : forall ts ids st', add_objs who ts st = (ids, st') ->
    effect who st ph (RIssued ids, st', match last_id ids with Some x => Some x | None => ph end)
| eff_remove : forall u, In u (uids st) -> effect who st ph (RDestroyed, remove_obj u st, ph).

Lemma create_effect : forall who ts g st ph, effect who st ph (create who ts g st ph).
Proof.
  intros. unfold create. destruct g; [|apply eff_none; [reflexivity|apply incl_nil_l]].
  destruct (add_objs who ts st) as [ids st'] eqn:E. eapply eff_add, E.
Qed.

Lemma step_item_effect : forall ver who st ph it, effect who st ph (step_item ver who st ph it).
Proof.
  intros. unfold step_item.
  assert (N : forall r, issued_of r = [] -> listed_of r = [] -> effect who st ph (r, st, ph)).
  { intros r H L. apply eff_none; [exact H|]. rewrite L. apply incl_nil_l. }
  destruct (i_op it) as [pol|pol|t pol|bases t pol|tgt|k tgt|tgt w| |vs| |ft off mx]; try apply create_effect.
  - (* ODeriveKey *) destruct (check_bases who st bases); auto using create_effect.
  - (* ODestroy *) destruct (access who PDestroy (resolve tgt ph) st) as [| |o] eqn:A; auto.
    destruct (i_gate it); auto. apply eff_remove. eapply access_ok_in, A.
  - (* OAddr *) destruct (ver <? min_version k); [|destruct (access who (pop_of k) (resolve tgt ph) st)]; auto.
  - (* OGetWrapped *) destruct (access who PGet (resolve tgt ph) st); [| |destruct (access who PGet (Some w) st)]; auto.
  - (* OLocate *) apply eff_none; [reflexivity|apply incl_map, incl_filter].
  - (* ODiscover *) destruct (ver <? 11); auto.
  - (* OQuery *) auto.
  - (* OLocatePage *) apply eff_none; [reflexivity|]. eapply incl_tran; [|apply incl_map, incl_filter].
    destruct mx; [eapply incl_tran; [apply incl_firstn|]|]; apply incl_skipn.
Qed.

Lemma step_item_grows : forall ver who st ph it r st' ph',
  step_item ver who st ph it = (r, st', ph') -> grows st (issued_of r) st'.
Proof.
  intros ver who st ph it r st' ph' H. pose proof (step_item_effect ver who st ph it) as E. rewrite H in E.
  inversion E as [r0 I _|ts ids st0 A|u _]; subst.
  - rewrite I. apply grows_refl.
  - eapply add_objs_grows, A.
  - apply remove_grows.
Qed.

Lemma step_item_ph : forall ver who st ph it r st' ph',
  step_item ver who st ph it = (r, st', ph') -> ph' = ph \/ exists i, ph' = Some i /\ next_uid st <= i.
Proof.
  intros ver who st ph it r st' ph' H. pose proof (step_item_effect ver who st ph it) as E. rewrite H in E.
  inversion E as [|ts ids st0 A|]; subst; auto.
  destruct (last_id ids) as [x|] eqn:L; auto. right. exists x. split; auto.
  apply last_id_in in L. apply add_objs_grows in A. apply (consec_In _ _ _ (grows_consec _ _ _ A)) in L. lia.
Qed.

Theorem inv_step : forall ver who st ph it, Inv st -> Inv (snd (fst (step_item ver who st ph it))).
Proof.
  intros ver who st ph it. destruct (step_item ver who st ph it) as [[r st1] ph1] eqn:E.
  apply (grows_inv _ _ _ (step_item_grows _ _ _ _ _ _ _ _ E)).
Qed.

Lemma destroy_ok_removes : forall ver who st ph tgt g st' ph',
  step_item ver who st ph {| i_op := ODestroy tgt; i_gate := g |} = (RDestroyed, st', ph') ->
  exists u, resolve tgt ph = Some u /\ In u (uids st) /\ st' = remove_obj u st /\ ph' = ph.
Proof.
  intros ver who st ph tgt g st' ph' H. unfold step_item in H. simpl in H.
  destruct (access who PDestroy (resolve tgt ph) st) as [| |o] eqn:A; try discriminate.
  destruct g; try discriminate. inversion H; subst.
  apply access_ok_in in A. destruct A as [R Hin]. eauto.
Qed.

Theorem destroy_frame : forall ver who st ph tgt g st' ph',
  step_item ver who st ph {| i_op := ODestroy tgt; i_gate := g |} = (RDestroyed, st', ph') ->
  exists u, resolve tgt ph = Some u /\
    objs st' = filter (fun o => negb (uid o =? u)) (objs st) /\
    next_uid st' = next_uid st /\ ph' = ph /\
    (forall o, uid o <> u -> (In o (objs st') <-> In o (objs st))) /\
    (forall v, v <> u -> find_obj v st' = find_obj v st) /\
    (forall w p v, v <> u -> access w p (Some v) st' = access w p (Some v) st).
Proof.
  intros ver who st ph tgt g st' ph' H.
  destruct (destroy_ok_removes _ _ _ _ _ _ _ _ H) as (u & R & _ & -> & ->).
  exists u. split; [exact R|]. do 3 (split; [reflexivity|]). split; [|split].
  - intros o Hne. rewrite In_remove_obj. tauto.
  - intros v Hv. apply find_obj_remove_other, Hv.
  - intros w p v Hv. apply access_remove_other. congruence.
Qed.

(* successive step_item calls, each starting in the store the previous one left; protocol version,
   requester and placeholder are whatever the entry's request had *)
Inductive chain : store -> list entry -> store -> Prop :=
| chain_nil : forall st, chain st [] st
| chain_cons : forall ver who st ph it r st1 ph1 es st2,
    step_item ver who st ph it = (r, st1, ph1) -> chain st1 es st2 ->
    chain st ({| e_item := it; e_ph := ph; e_store := st; e_resp := r |} :: es) st2.

Lemma chain_app : forall a l1 b l2 c, chain a l1 b -> chain b l2 c -> chain a (l1 ++ l2) c.
Proof. induction 1; simpl; intros; auto. econstructor; eauto. Qed.

Lemma chain_grows : forall st es st', chain st es st' -> grows st (issue_log es) st'.
Proof.
  induction 1 as [st|ver who st ph it r st1 ph1 es st2 H C IH]; [apply grows_refl|].
  exact (grows_trans _ _ _ _ _ (step_item_grows _ _ _ _ _ _ _ _ H) IH).
Qed.

(* run_items, Stop and Continue alike, read as a relation between start, log and end *)
Lemma run_items_ind : forall ver who cont (R : store -> option Z -> list entry -> store -> option Z -> Prop),
  (forall st ph, R st ph [] st ph) ->
  (forall st ph it r st1 ph1 es st2 ph2, step_item ver who st ph it = (r, st1, ph1) -> R st1 ph1 es st2 ph2 ->
     R st ph ({| e_item := it; e_ph := ph; e_store := st; e_resp := r |} :: es) st2 ph2) ->
  forall its st ph es st' ph', run_items ver who cont st ph its = (es, st', ph') -> R st ph es st' ph'.
Proof.
  intros ver who cont R R0 RS. induction its as [|it rest IH]; simpl; intros st ph es st' ph' H.
  - injection H as <- <- <-. apply R0.
  - destruct (step_item ver who st ph it) as [[r st1] ph1] eqn:E1.
    destruct (failed it r && negb cont).
    + injection H as <- <- <-. eapply RS; eauto.
    + destruct (run_items ver who cont st1 ph1 rest) as [[es2 st2] ph2] eqn:E2.
      injection H as <- <- <-. eapply RS; eauto.
Qed.

Lemma run_items_chain : forall ver who cont its st ph es st' ph',
  run_items ver who cont st ph its = (es, st', ph') -> chain st es st'.
Proof.
  intros ver who cont. apply (run_items_ind ver who cont (fun st _ es st' _ => chain st es st')).
  - intros. constructor.
  - intros. econstructor; eauto.
Qed.

(* at the start of a request the placeholder is None; inside a batch it is what the batch started with
   or an identifier not below next_uid at the start of the batch *)
Lemma placeholder_fresh : forall ver who cont its st ph es st' ph',
  run_items ver who cont st ph its = (es, st', ph') ->
  Forall (fun e => e_ph e = ph \/ exists i, e_ph e = Some i /\ next_uid st <= i) es.
Proof.
  intros ver who cont.
  apply (run_items_ind ver who cont (fun st ph es _ _ =>
           Forall (fun e => e_ph e = ph \/ exists i, e_ph e = Some i /\ next_uid st <= i) es)).
  - constructor.
  - intros st ph it r st1 ph1 es st2 ph2 H F. constructor; [left; reflexivity|].
    pose proof (consec_le _ _ _ (grows_consec _ _ _ (step_item_grows _ _ _ _ _ _ _ _ H))) as Le.
    eapply Forall_impl; [|exact F]. simpl. intros e [He|(i & He & Hi)].
    + rewrite He. apply (step_item_ph _ _ _ _ _ _ _ _ H).
    + right. exists i. split; [exact He|lia].
Qed.

(* the function Model.entries_of maps over the outputs, under a name *)
Definition out_entries (o : option (list entry)) : list entry := match o with Some es => es | None => [] end.

Lemma step_event_chain : forall st ev,
  chain st (out_entries (fst (step_event st ev))) (snd (step_event st ev)).
Proof.
  intros st [rq|]; simpl; [unfold process; destruct (supported_version (rq_ver rq))|]; try constructor.
  destruct (run_items _ _ _ _ _ _) as [[es st2] ph2] eqn:E. eapply run_items_chain, E.
Qed.

Lemma history_chain : forall evs st, chain st (history_entries st evs) (final_store st evs).
Proof.
  unfold history_entries, final_store. induction evs as [|ev rest IH]; intros st; simpl; [constructor|].
  pose proof (step_event_chain st ev) as C. destruct (step_event st ev) as [o st1]. specialize (IH st1).
  destruct (run_history st1 rest) as [os st2]. exact (chain_app _ _ _ _ _ C IH).
Qed.

Lemma history_grows : forall evs st, grows st (issue_log (history_entries st evs)) (final_store st evs).
Proof. intros. apply chain_grows, history_chain. Qed.

Theorem inv_history : forall evs st, Inv st -> Inv (final_store st evs).
Proof. intros evs st. apply (grows_inv _ _ _ (history_grows evs st)). Qed.

(* the identifiers issued during any history are exactly next_uid, next_uid+1, ... in order *)
Theorem issue_log_consecutive : forall evs st,
  consec (next_uid st) (issue_log (history_entries st evs)) (next_uid (final_store st evs)).
Proof. intros evs st. apply grows_consec, history_grows. Qed.

(* no identifier issued in a history is the identifier of an object that existed before it *)
Theorem issued_not_preexisting : forall evs st i,
  Inv st -> In i (issue_log (history_entries st evs)) -> next_uid st <= i /\ ~ In i (uids st).
Proof.
  intros evs st i HI Hi.
  destruct (grows_fresh _ _ _ i HI (history_grows evs st) Hi) as [B N]. split; [apply B|exact N].
Qed.

(* every identifier issued after a point of a history (for instance after a restart) is larger than
   every identifier issued before it *)
Theorem issued_fresh : forall e1 e2 st i j,
  In i (issue_log (history_entries st e1)) ->
  In j (issue_log (history_entries (final_store st e1) e2)) ->
  i < j.
Proof.
  intros e1 e2 st i j Hi Hj.
  apply (consec_In _ _ _ (issue_log_consecutive e1 st)) in Hi.
  apply (consec_In _ _ _ (issue_log_consecutive e2 (final_store st e1))) in Hj. lia.
Qed.

Lemma run_history_app : forall e1 e2 st,
  run_history st (e1 ++ e2) =
  (fst (run_history st e1) ++ fst (run_history (snd (run_history st e1)) e2), snd (run_history (snd (run_history st e1)) e2)).
Proof.
  induction e1 as [|ev e1 IH]; simpl; intros e2 st.
  - destruct (run_history st e2); auto.
  - destruct (step_event st ev) as [o st1]. rewrite IH.
    destruct (run_history st1 e1) as [os1 st2]. simpl.
    destruct (run_history st2 e2) as [os2 st3]. simpl. auto.
Qed.

Theorem history_split : forall e1 e2 st,
  history_entries st (e1 ++ e2) = history_entries st e1 ++ history_entries (final_store st e1) e2 /\
  final_store st (e1 ++ e2) = final_store (final_store st e1) e2.
Proof.
  intros. unfold history_entries, final_store. rewrite run_history_app. simpl. unfold entries_of. rewrite flat_map_app. auto.
Qed.

Definition Dead (u : Z) (st : store) : Prop := ~ In u (uids st) /\ u < next_uid st.

(* a dead identifier lies below the allocator, so it is never issued and never comes back *)
Lemma dead_grows : forall u st log st', Dead u st -> grows st log st' -> Dead u st' /\ ~ In u log.
Proof.
  intros u st log st' [D1 D2] (C & _ & U).
  assert (NL : ~ In u log) by (intro Hin; apply (consec_In _ _ _ C) in Hin; lia).
  split; auto. split.
  - intro Hin. apply U in Hin. tauto.
  - apply consec_le in C. lia.
Qed.

Lemma remove_dead : forall u st, Inv st -> In u (uids st) -> Dead u (remove_obj u st).
Proof. intros u st HI Hin. split; [apply not_in_remove|apply (inv_bound _ _ HI Hin)]. Qed.

(* how an item can refer to an identifier *)
Definition direct_target (it : item) (ph : option Z) : option Z :=
  match i_op it with
  | ODestroy tgt | OAddr _ tgt | OGetWrapped tgt _ => resolve tgt ph
  | _ => None
  end.
Definition indirect_refs (it : item) : list Z :=
  match i_op it with
  | OGetWrapped _ w => [w]
  | ODeriveKey bases _ _ => bases
  | _ => []
  end.

(* what an item answers when it refers to a dead identifier *)
Definition respects_dead (u : Z) (e : entry) : Prop :=
  (direct_target (e_item e) (e_ph e) = Some u -> e_resp e = RNotFound \/ e_resp e = RNotSupported) /\
  (In u (indirect_refs (e_item e)) -> e_resp e = RNotFound \/ e_resp e = RDenied \/ e_resp e = RWrapNotFound) /\
  (forall ids, e_resp e = RLocated ids -> ~ In u ids) /\
  (forall ids, e_resp e = RIssued ids -> ~ In u ids).

(* An item that refers to an identifier absent from the store fails at the lookup and changes nothing:
   the lookup of the target comes first (a version gate aside); a wrapping key or a derivation base
   is looked up before anything is computed. *)
Lemma refers_absent : forall u ver who st ph it r st' ph',
  ~ In u (uids st) -> step_item ver who st ph it = (r, st', ph') ->
  (direct_target it ph = Some u -> st' = st /\ (r = RNotFound \/ r = RNotSupported)) /\
  (In u (indirect_refs it) -> st' = st /\ (r = RNotFound \/ r = RDenied \/ r = RWrapNotFound)).
Proof.
  intros u ver who st ph it r st' ph' D. pose proof (fun p => access_absent who p u st D) as A.
  unfold direct_target, indirect_refs, step_item.
  (* only ODestroy, OAddr, OGetWrapped have a direct target, only ODeriveKey, OGetWrapped indirect
     ones: of the 22 goals the other 17 have a false premise *)
  destruct (i_op it) as [pol|pol|t pol|bases t pol|tgt|k tgt|tgt w| |vs| |ft off mx]; intros H;
    (split; intros T; [try discriminate T|try contradiction T]).
  - (* ODeriveKey, a base *) pose proof (check_bases_absent who st u bases D T).
    destruct (check_bases who st bases); [inversion H; auto|inversion H; auto|contradiction].
  - (* ODestroy *) rewrite T, A in H. inversion H; auto.
  - (* OAddr *) rewrite T, A in H. destruct (ver <? min_version k); inversion H; auto.
  - (* OGetWrapped, the target *) rewrite T, A in H. inversion H; auto.
  - (* OGetWrapped, the wrapping key *) destruct T as [->|[]]. rewrite A in H.
    destruct (access who PGet (resolve tgt ph) st); inversion H; auto.
Qed.

Theorem dead_item_answer : forall u ver who st ph it r st' ph',
  Dead u st -> step_item ver who st ph it = (r, st', ph') ->
  respects_dead u {| e_item := it; e_ph := ph; e_store := st; e_resp := r |} /\
  ((direct_target it ph = Some u \/ In u (indirect_refs it)) -> st' = st).
Proof.
  intros u ver who st ph it r st' ph' D H.
  destruct (refers_absent u _ _ _ _ _ _ _ _ (proj1 D) H) as [A B].
  split; [split; [|split; [|split]]|]; simpl.
  - intros T. apply (A T).
  - intros T. apply (B T).
  - intros ids -> Hin. pose proof (step_item_effect ver who st ph it) as E. rewrite H in E.
    inversion E as [r0 _ L| |]; subst. apply (proj1 D), L, Hin.
  - intros ids -> Hin. apply (dead_grows _ _ _ _ D (step_item_grows _ _ _ _ _ _ _ _ H)), Hin.
  - intros [T|T]; [apply (A T)|apply (B T)].
Qed.

Lemma chain_dead : forall u st es st', chain st es st' -> Dead u st -> Dead u st' /\ Forall (respects_dead u) es.
Proof.
  induction 1 as [st|ver who st ph it r st1 ph1 es st2 H C IH]; intros D; [auto|].
  destruct (dead_grows _ _ _ _ D (step_item_grows _ _ _ _ _ _ _ _ H)) as [D1 _].
  destruct (IH D1) as [D2 F]. split; [exact D2|]. constructor; [|exact F].
  eapply dead_item_answer; eauto.
Qed.

(* After a successful Destroy of u: in the rest of the batch and in every later history (any
   identities, any versions, restarts), u never becomes live again, every item that refers to u
   directly or through the placeholder answers "not found" (or "operation not supported" when the
   version check precedes the lookup), as wrapping key or derivation base it makes the item fail
   before anything is computed, Locate never lists it, and it is never issued again. *)
Theorem destroyed_dead : forall ver who st ph tgt g st1 ph1,
  Inv st -> step_item ver who st ph {| i_op := ODestroy tgt; i_gate := g |} = (RDestroyed, st1, ph1) ->
  exists u, resolve tgt ph = Some u /\ In u (uids st) /\
    (forall cont rest es st2 ph2, run_items ver who cont st1 ph1 rest = (es, st2, ph2) ->
        Dead u st2 /\ Forall (respects_dead u) es /\
        forall evs, ~ In u (uids (final_store st2 evs)) /\ Forall (respects_dead u) (history_entries st2 evs)).
Proof.
  intros ver who st ph tgt g st1 ph1 HI H.
  destruct (destroy_ok_removes _ _ _ _ _ _ _ _ H) as (u & R & Hin & -> & ->). pose proof (remove_dead u st HI Hin) as D.
  exists u. split; auto. split; auto.
  intros cont rest es st2 ph2 E. destruct (chain_dead u _ _ _ (run_items_chain _ _ _ _ _ _ _ _ _ E) D) as [D2 F2].
  split; auto. split; auto. intros evs.
  destruct (chain_dead u _ _ _ (history_chain evs st2) D2) as [[D3 _] F3]. auto.
Qed.

(* the same statement for any state in which u is dead (e.g. destroyed in an earlier run of the server) *)
Theorem dead_forever : forall u st evs, Dead u st ->
  Dead u (final_store st evs) /\ Forall (respects_dead u) (history_entries st evs).
Proof. intros u st evs. apply chain_dead, history_chain. Qed.

(* what the freshness theorems exclude: the allocator SQLite uses for an INTEGER PRIMARY KEY WITHOUT
   AUTOINCREMENT - largest existing rowid + 1.  After destroying the newest object it hands the dead
   identifier out again, while the persisted counter does not. *)
Definition next_of_max (st : store) : Z := fold_right Z.max 0 (uids st) + 1.

Example rowid_allocator_would_reuse :
  let st0 := snd (add_objs 0 [(TSym, 0); (TSym, 0)] init_store) in
  let st1 := remove_obj 2 st0 in
  uids st0 = [1; 2] /\ uids st1 = [1] /\ next_of_max st1 = 2 /\ next_uid st1 = 3.
Proof. vm_compute. auto. Qed.

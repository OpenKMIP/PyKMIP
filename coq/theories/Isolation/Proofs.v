(* C11 proofs: nothing the engine object keeps between requests influences a request
   (process_request_ignores_transient and the theorems read off it); the handlers never look at the asynchronous
   flag (same_view, *_async); the engine before fix 668324a as counterexample. *)
From PK Require Import Isolation.Model.
From Coq Require Import ZArith List Bool String.
Import ListNotations.
Open Scope Z_scope.

(* the header processing of process_request overwrites every transient field before the batch runs *)
Lemma header_overwrites : forall t1 t2 who v b,
  set_ident (set_async (set_version (set_ph (set_ident t1 nobody) None) v) b) who =
  set_ident (set_async (set_version (set_ph (set_ident t2 nobody) None) v) b) who.
Proof. intros. reflexivity. Qed.

(* Answer and resulting store are functions of store, identity and request alone.  An error found
   while the header is processed is returned with some fields of the engine object not yet written;
   the last field to be written is the asynchronous flag, and from there on the engine object as it
   came in does not occur in what remains to be done. *)
Lemma process_request_ignores_transient : forall xs who q, exists o xs', forall t, exists t',
  process_request xs t who q = (o, (xs', t')).
Proof.
  intros xs who q. unfold process_request, process_request_gen.
  assert (K : forall e : xout * (xstore * transient),
            exists o xs', forall t : transient, exists t', e = (o, (xs', t'))).
  { intros [o [xs' t']]. eauto. }
  destruct (negb (supported_version (q_ver q))); [eexists _, _; intros t; eexists; reflexivity|].
  destruct (q_stamp q); try (eexists _, _; intros t; eexists; reflexivity).
  (* after cbv all five fields are literals and t does not occur *)
  all: destruct (q_async q) as [[|]|];
    cbv [set_ident set_async set_version set_ph t_async t_ph t_ver t_apv t_ident]; apply K.
Qed.

Theorem transient_irrelevant : forall xs t1 t2 who q,
  fst (process_request xs t1 who q) = fst (process_request xs t2 who q) /\
  fst (snd (process_request xs t1 who q)) = fst (snd (process_request xs t2 who q)).
Proof.
  intros xs t1 t2 who q. destruct (process_request_ignores_transient xs who q) as (o & xs' & E).
  destruct (E t1) as [t1' ->], (E t2) as [t2' ->]. split; reflexivity.
Qed.

(* whole histories: two engine objects that differ in every transient field but share the store
   answer every request of every history identically and end with the same store *)
Theorem history_transient_irrelevant : forall evs xs t1 t2,
  fst (run_history_t true (xs, t1) evs) = fst (run_history_t true (xs, t2) evs) /\
  fst (snd (run_history_t true (xs, t1) evs)) = fst (snd (run_history_t true (xs, t2) evs)).
Proof.
  induction evs as [|[who q|] rest IH]; intros xs t1 t2; [split; reflexivity|..];
    cbn [run_history_t step_event_t fst snd].
  - fold process_request. destruct (process_request_ignores_transient xs who q) as (o & xs' & E).
    destruct (E t1) as [t1' ->], (E t2) as [t2' ->]. specialize (IH xs' t1' t2').
    destruct (run_history_t true (xs', t1') rest), (run_history_t true (xs', t2') rest).
    cbn [fst snd] in *. destruct IH as [-> ->]. split; reflexivity.
  - destruct (run_history_t true (xs, fresh_transient) rest). split; reflexivity.
Qed.

(* the property's own formulation: after ANY prefix history the probe is answered exactly as by a fresh
   engine object opened on the same store, and leaves the same store *)
Theorem probe_equals_fresh : forall evs xs0 t0 who probe,
  let s := snd (run_history_t true (xs0, t0) evs) in
  fst (process_request (fst s) (snd s) who probe) = fst (process_request (fst s) fresh_transient who probe) /\
  fst (snd (process_request (fst s) (snd s) who probe)) = fst (snd (process_request (fst s) fresh_transient who probe)).
Proof. intros. apply transient_irrelevant. Qed.

(* two engine objects look the same to a handler when they agree on placeholder, version, attribute
   policy and identity; the asynchronous flag is never read below process_request *)
Definition same_view (t t' : transient) : Prop :=
  t_ph t = t_ph t' /\ t_ver t = t_ver t' /\ t_apv t = t_apv t' /\ t_ident t = t_ident t'.

(* the asynchronous flag is carried through a handler, and through a batch, without being looked at *)
Lemma step_item_t_async : forall xs t xi, exists r xs' t', forall b,
  step_item_t xs (set_async t b) xi = (r, xs', set_async t' b).
Proof.
  intros xs t xi. unfold step_item_t. cbn [set_async t_ph t_ver t_apv t_ident].
  destruct (step_item (t_ver t) (t_ident t) (xs_base xs) (t_ph t) (x_item xi)) as [[r st'] ph'].
  eexists _, _, (set_ph t ph'). intros b. reflexivity.
Qed.

Lemma run_items_t_async : forall cont its xs t, exists rs xs' t', forall b,
  run_items_t cont xs (set_async t b) its = (rs, xs', set_async t' b).
Proof.
  induction its as [|xi rest IH]; intros xs t; cbn [run_items_t]; [eexists _, _, t; reflexivity|].
  destruct (step_item_t_async xs t xi) as (r & xs1 & t1 & E). destruct (IH xs1 t1) as (rs & xs2 & t2 & E2).
  destruct (xfailed (x_item xi) r && negb cont) eqn:F.
  - exists [r], xs1, t1. intros b. rewrite E, F. reflexivity.
  - exists (r :: rs), xs2, t2. intros b. rewrite E, F, E2. reflexivity.
Qed.

Lemma same_view_differ_in_async : forall t t', same_view t t' -> exists t0 b b', t = set_async t0 b /\ t' = set_async t0 b'.
Proof.
  intros [ph v a i b] [ph' v' a' i' b'] (H1 & H2 & H3 & H4). cbn in H1, H2, H3, H4. subst.
  exists {| t_ph := ph'; t_ver := v'; t_apv := a'; t_ident := i'; t_async := b |}, b, b'. split; reflexivity.
Qed.

(* what the theorem excludes: the engine before fix 668324a, whose placeholder survived the request *)
Definition leak_store : xstore :=
  {| xs_base := {| objs := [mk 1 0 (TSym, 0)]; next_uid := 2 |}; xs_present := [] |}.
Definition leak_probe : xrequest :=
  {| q_ver := 12; q_stamp := StampAbsent; q_async := None; q_undo := false; q_cont := false; q_ids_ok := false;
     q_items := [{| x_item := {| i_op := OAddr AGet None; i_gate := true |}; x_present := [] |}] |}.

Theorem old_engine_not_isolated :
  exists xs t1 t2 who q,
    fst (process_request_gen false xs t1 who q) <> fst (process_request_gen false xs t2 who q).
Proof.
  exists leak_store, (set_ph fresh_transient (Some 1)), fresh_transient, 0, leak_probe.
  vm_compute. discriminate.
Qed.

(* the transient state a history leaves behind is not trivial: placeholder, version and identity all stick *)
Example leftovers :
  snd (snd (process_request init_xstore fresh_transient 2
     {| q_ver := 20; q_stamp := StampAbsent; q_async := None; q_undo := false; q_cont := false; q_ids_ok := false;
        q_items := [{| x_item := {| i_op := OCreate 0; i_gate := true |}; x_present := [[]] |}] |}))
  = {| t_ph := Some 1; t_ver := 20; t_apv := 20; t_ident := 2; t_async := false |}.
Proof. vm_compute. reflexivity. Qed.

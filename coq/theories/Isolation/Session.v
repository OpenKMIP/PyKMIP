(* C11, connection level: code model of KmipSession._handle_message_loop as far as it carries state.
   The session object has four attributes (set in __init__): _max_response_size, _max_request_size,
   _max_buffer_size, _session_time.  All four are configuration: read by every message, written by none.
   A message states its own Maximum Response Size in its header; that limit applies to THIS answer only
   (local variable max_size), and only when the engine answered (a request-level KmipError is answered
   under the session's own limit).

   In this file: the session model (sess, handle_message, run_connection) and its theorems; a session
   that keeps the limit (handle_message_sticky) as counterexample; the comparator of tie K
   (scheck_history, sfirst_bad; harness/c11.py SessRunner) with the shorthands its case files use.
   The theorems need Isolation.Proofs, so the comparator loads it too. *)
From PK Require Export Isolation.Model Isolation.Cases.
From PK Require Import Isolation.Proofs.
From Coq Require Import ZArith List Bool String.
Import ListNotations.
Open Scope Z_scope.

Record sess := { s_max_resp : Z; s_max_req : Z; s_buf : Z; s_time : Z }.
Definition new_sess (now : Z) : sess := {| s_max_resp := 1048576; s_max_req := 1048576; s_buf := 4096; s_time := now |}.

Inductive frame :=
| FBad                                            (* bytes that RequestMessage.read refuses *)
| FNoAuth                                         (* a well-formed request of a client the authentication service does not know *)
| FReq (q : xrequest) (qmax : option Z) (len : Z). (* a request, its Maximum Response Size, and the encoded length of
                                                      the engine's answer (oracle input: the model has no encoder) *)

Inductive sout := SInvalid | SAuthFail | STooLarge | SAnswer (o : xout).

Definition handle_message (ss : sess) (s : xstore * transient) (who : Z) (f : frame) : sout * sess * (xstore * transient) :=
  match f with
  | FBad => (SInvalid, ss, s)
  | FNoAuth => (SAuthFail, ss, s)                  (* the engine is not called *)
  | FReq q qmax len =>
      let '(o, s') := process_request (fst s) (snd s) who q in
      match o with
      | XOk _ => let max_size := match qmax with Some m => m | None => s_max_resp ss end in
                 ((if max_size <? len then STooLarge else SAnswer o), ss, s')
      | XErr _ => (SAnswer o, ss, s')              (* build_error_response: a few dozen bytes, under the session's limit *)
      end
  end.

(* one connection: messages of one authenticated identity over one session object *)
Fixpoint run_connection (ss : sess) (s : xstore * transient) (who : Z) (fs : list frame) : list sout * sess * (xstore * transient) :=
  match fs with
  | [] => ([], ss, s)
  | f :: rest => let '(o, ss1, s1) := handle_message ss s who f in
                 let '(os, ss2, s2) := run_connection ss1 s1 who rest in (o :: os, ss2, s2)
  end.

Lemma session_unchanged : forall ss s who f, snd (fst (handle_message ss s who f)) = ss.
Proof.
  intros ss s who [| |q qmax len]; cbn [handle_message]; auto.
  destruct (process_request (fst s) (snd s) who q) as [o s']. destruct o; reflexivity.
Qed.

Lemma connection_session_unchanged : forall fs ss s who, snd (fst (run_connection ss s who fs)) = ss.
Proof.
  induction fs as [|f rest IH]; intros ss s who; cbn [run_connection]; auto.
  pose proof (session_unchanged ss s who f) as H.
  destruct (handle_message ss s who f) as [[o ss1] s1]. cbn [fst snd] in H. subst ss1.
  specialize (IH ss s1 who). destruct (run_connection ss s1 who rest) as [[os ss2] s2]. exact IH.
Qed.

(* the answer to a message does not depend on the engine object's leftovers either *)
Lemma message_transient_irrelevant : forall ss xs t1 t2 who f,
  fst (fst (handle_message ss (xs, t1) who f)) = fst (fst (handle_message ss (xs, t2) who f)) /\
  fst (snd (handle_message ss (xs, t1) who f)) = fst (snd (handle_message ss (xs, t2) who f)).
Proof.
  intros ss xs t1 t2 who [| |q qmax len]; cbn [handle_message fst snd]; auto.
  destruct (process_request_ignores_transient xs who q) as (o & xs' & E).
  destruct (E t1) as [t1' ->], (E t2) as [t2' ->]. destruct o; split; reflexivity.
Qed.

(* The property at connection level: after ANY messages on this connection (small response limits, other
   versions, failing and undecodable messages) the probe is answered exactly as over a NEW connection
   (new session object, same configuration) to a FRESH engine object on the same store. *)
Theorem probe_equals_fresh_connection : forall prefix now s0 who probe,
  let r := run_connection (new_sess now) s0 who prefix in
  let ss := snd (fst r) in let s := snd r in
  fst (fst (handle_message ss s who probe)) = fst (fst (handle_message (new_sess now) (fst s, fresh_transient) who probe)) /\
  fst (snd (handle_message ss s who probe)) = fst (snd (handle_message (new_sess now) (fst s, fresh_transient) who probe)).
Proof.
  intros prefix now s0 who probe. cbv zeta.
  rewrite connection_session_unchanged.
  destruct (snd (run_connection (new_sess now) s0 who prefix)) as [xs t]. simpl fst.
  apply message_transient_irrelevant.
Qed.

(* what it excludes: a session that keeps the limit of an earlier message (seeded defect C11C) *)
Definition handle_message_sticky (ss : sess) (s : xstore * transient) (who : Z) (f : frame) : sout * sess * (xstore * transient) :=
  match f with
  | FBad => (SInvalid, ss, s)
  | FNoAuth => (SAuthFail, ss, s)
  | FReq q qmax len =>
      let '(o, s') := process_request (fst s) (snd s) who q in
      match o with
      | XOk _ => let ss' := match qmax with
                            | Some m => {| s_max_resp := m; s_max_req := s_max_req ss; s_buf := s_buf ss; s_time := s_time ss |}
                            | None => ss end in
                 ((if s_max_resp ss' <? len then STooLarge else SAnswer o), ss', s')
      | XErr _ => (SAnswer o, ss, s')
      end
  end.

Definition locate_q : xrequest :=
  {| q_ver := 12; q_stamp := StampAbsent; q_async := None; q_undo := false; q_cont := false; q_ids_ok := false;
     q_items := [{| x_item := {| i_op := OLocate; i_gate := true |}; x_present := [] |}] |}.

Theorem sticky_session_not_isolated :
  exists ss1 ss2 s who f,
    ss2 = snd (fst (handle_message_sticky ss1 s who (FReq locate_q (Some 100) 80))) /\
    fst (fst (handle_message_sticky ss1 s who f)) <> fst (fst (handle_message_sticky ss2 s who f)).
Proof.
  exists (new_sess 0), (snd (fst (handle_message_sticky (new_sess 0) (init_xstore, fresh_transient) 0 (FReq locate_q (Some 100) 80)))),
         (init_xstore, fresh_transient), 0, (FReq locate_q None 500).
  split; [reflexivity|]. vm_compute. discriminate.
Qed.

Inductive sevent :=
| SMsg (conn : Z) (who : Z) (f : frame)      (* a message on connection `conn` (each has its own session object) *)
| SRestartAll.                               (* server restart: new engine object, all connections gone *)

Definition sout_eqb (a b : sout) : bool :=
  match a, b with
  | SInvalid, SInvalid | STooLarge, STooLarge | SAuthFail, SAuthFail => true
  | SAnswer x, SAnswer y => xout_eqb x y
  | _, _ => false
  end.

Record sobs := { so_out : option sout; so_next : Z; so_uids : list Z }.

(* every connection's session record is new_sess (connection_session_unchanged), so the comparator needs no per-connection state *)
Fixpoint scheck_from (s : xstore * transient) (h : list (sevent * sobs)) : bool :=
  match h with
  | [] => true
  | (ev, ob) :: rest =>
      let '(o, s1) := match ev with
                      | SMsg _ who f => let '(o, _, s1) := handle_message (new_sess 0) s who f in (Some o, s1)
                      | SRestartAll => (None, (fst s, fresh_transient))
                      end in
      match o, so_out ob with
      | Some a, Some b => sout_eqb a b
      | None, None => true
      | _, _ => false
      end && (next_uid (xs_base (fst s1)) =? so_next ob) && zlist_eqb (uids (xs_base (fst s1))) (so_uids ob)
      && scheck_from s1 rest
  end.
Definition scheck_history (h : list (sevent * sobs)) : bool := scheck_from (init_xstore, fresh_transient) h.

Fixpoint sfirst_bad_from (s : xstore * transient) (h : list (sevent * sobs)) (k : Z) : Z :=
  match h with
  | [] => -1
  | (ev, ob) :: rest =>
      if scheck_from s [(ev, ob)] then
        let s1 := match ev with
                  | SMsg _ who f => snd (handle_message (new_sess 0) s who f)
                  | SRestartAll => (fst s, fresh_transient)
                  end in sfirst_bad_from s1 rest (k + 1)
      else k
  end.
Definition sfirst_bad (h : list (sevent * sobs)) : Z := sfirst_bad_from (init_xstore, fresh_transient) h 0.

(* shorthand: a frame from the request term the engine-level cases use *)
Definition SF (conn : Z) (ev : xevent) (qmax : option Z) (len : Z) : sevent :=
  match ev with
  | XReq who q => SMsg conn who (FReq q qmax len)
  | XRestart => SRestartAll
  end.
Definition SBadF (conn who : Z) : sevent := SMsg conn who FBad.
Definition SNoAuthF (conn who : Z) : sevent := SMsg conn who FNoAuth.
Definition SO (o : option sout) (n : Z) (us : list Z) : sobs := {| so_out := o; so_next := n; so_uids := us |}.

(* C05 - the two type decorators of kmip/pie/sqltypes.py. *)
From Coq Require Import ZArith List Bool Lia.
From PKGen Require Import PieColumns.
From PK Require Import Persist.Model.
Import ListNotations.
Open Scope Z_scope.

Definition enum_ok (o : option Z) : Prop := o <> Some enum_null.
Lemma enum_ok_None : enum_ok None. Proof. discriminate. Qed.

Lemma sql_enum_in_out : forall o, enum_ok o -> sql_enum_in (sql_enum_out o) = o.
Proof.
  intros [v|] H; unfold sql_enum_in, sql_enum_out.
  - destruct (v =? enum_null) eqn:E; [apply Z.eqb_eq in E; subst; exfalso; apply H; reflexivity | reflexivity].
  - rewrite Z.eqb_refl. reflexivity.
Qed.

Lemma sql_enum_out_in : forall z, sql_enum_out (sql_enum_in z) = z.
Proof.
  intro z. unfold sql_enum_in, sql_enum_out. destruct (z =? enum_null) eqn:E; [apply Z.eqb_eq in E; subst|]; reflexivity.
Qed.

(* without the hypothesis the round trip fails: a value equal to the sentinel reads back as NULL *)
Lemma sql_enum_sentinel_collides : sql_enum_in (sql_enum_out (Some enum_null)) = None.
Proof. reflexivity. Qed.

(* tie T: no member of any enumeration stored through EnumType equals the sentinel *)
Definition members_nonnull : bool :=
  forallb (fun c => forallb (fun v => negb (v =? enum_null)) (snd c)) stored_enum_members.
Lemma stored_members_never_null : members_nonnull = true.
Proof. vm_compute. reflexivity. Qed.

(* the same fact as Monitor.AListProofs.memZ_In, for this area's copy of the function *)
Lemma mem_z_In : forall x l, mem_z x l = true <-> In x l.
Proof.
  intros x l. unfold mem_z. rewrite existsb_exists. split.
  - intros [y [Hy E]]. apply Z.eqb_eq in E. subst y. exact Hy.
  - intro H. exists x. split; [exact H|apply Z.eqb_refl].
Qed.

(* tie T: the members are pairwise disjoint non-zero bit patterns *)
Definition bits_disjoint : bool :=
  forallb (fun b => negb (b =? 0) && forallb (fun c => if b =? c then true else Z.land b c =? 0) mask_bits) mask_bits.
Lemma mask_bits_disjoint : bits_disjoint = true.
Proof. vm_compute. reflexivity. Qed.
Lemma mask_bits_nodup : NoDup mask_bits.
Proof.
  (* the table has no repeated bit, so nodup leaves it as it is: checked by conversion *)
  change mask_bits with (nodup Z.eq_dec mask_bits). apply NoDup_nodup.
Qed.

Lemma bit_set_member : forall x b, In x mask_bits -> In b mask_bits -> bit_set x b = (b =? x).
Proof.
  intros x b Hx Hb. pose proof mask_bits_disjoint as H. unfold bits_disjoint in H. rewrite forallb_forall in H.
  specialize (H _ Hb). apply andb_true_iff in H. destruct H as [Nz D]. rewrite forallb_forall in D. specialize (D _ Hx).
  unfold bit_set. destruct (b =? x) eqn:E.
  - apply Z.eqb_eq in E. subst x. rewrite Z.land_diag. exact Nz.
  - rewrite D. reflexivity.
Qed.

(* a test that turns OR into orb sees the OR of a list as the disjunction over its members; used for one mask bit
   (bit_set) and for one binary digit (Z.testbit) *)
Lemma fold_lor_orb : forall h : Z -> bool, (forall a x, h (Z.lor a x) = h a || h x) ->
  forall l a, h (fold_left Z.lor l a) = h a || existsb h l.
Proof.
  intros h Hh. induction l as [|x l IH]; intro a; simpl; [rewrite orb_false_r; reflexivity|].
  rewrite IH, Hh, orb_assoc. reflexivity.
Qed.

Lemma bit_set_lor : forall b a x, bit_set (Z.lor a x) b = bit_set a b || bit_set x b.
Proof.
  intros b a x. unfold bit_set. rewrite Z.land_lor_distr_r, <- negb_andb. f_equal.
  apply eq_true_iff_eq. rewrite andb_true_iff, !Z.eqb_eq. apply Z.lor_eq_0_iff.
Qed.

Lemma bit_set_mask_out : forall l b, Forall (fun x => In x mask_bits) l -> In b mask_bits ->
  bit_set (sql_mask_out l) b = mem_z b l.
Proof.
  intros l b Hl Hb. unfold sql_mask_out, mem_z. rewrite (fold_lor_orb (fun z => bit_set z b) (bit_set_lor b)).
  unfold bit_set at 1. rewrite Z.land_0_r. simpl.
  induction Hl as [|x l Hx _ IH]; simpl; [reflexivity|]. rewrite IH, (bit_set_member x b Hx Hb). reflexivity.
Qed.

(* the test for 0 in process_result_value is a shortcut *)
Lemma sql_mask_in_filter : forall z, sql_mask_in z = filter (bit_set z) mask_bits.
Proof.
  intro z. unfold sql_mask_in. destruct (z =? 0) eqn:E; [|reflexivity]. apply Z.eqb_eq in E. subst z.
  induction mask_bits as [|x m IH]; simpl; [reflexivity|]. unfold bit_set at 1. rewrite Z.land_0_r. exact IH.
Qed.

Definition canon_mask (l : list Z) : list Z := filter (fun b => mem_z b l) mask_bits.

(* result = the set bits in canonical enumeration order *)
Lemma sql_mask_in_out : forall l, Forall (fun x => In x mask_bits) l -> sql_mask_in (sql_mask_out l) = canon_mask l.
Proof. intros l Hl. rewrite sql_mask_in_filter. apply filter_ext_in. intros b Hb. apply bit_set_mask_out; assumption. Qed.

Lemma canon_mask_nodup : forall l, NoDup (canon_mask l).
Proof. intro l. apply NoDup_filter. apply mask_bits_nodup. Qed.

Lemma canon_mask_same_set : forall l b, Forall (fun x => In x mask_bits) l -> (In b (canon_mask l) <-> In b l).
Proof.
  intros l b Hl. unfold canon_mask. rewrite filter_In, mem_z_In. rewrite Forall_forall in Hl.
  split; [tauto|]. intro Hb. split; [apply Hl|]; exact Hb.
Qed.

Lemma mask_out_same_set : forall l1 l2, (forall b, In b l1 <-> In b l2) -> sql_mask_out l1 = sql_mask_out l2.
Proof.
  intros l1 l2 H. apply Z.bits_inj. intro i. unfold sql_mask_out.
  rewrite !(fold_lor_orb (fun z => Z.testbit z i) (fun a x => Z.lor_spec a x i)). f_equal.
  apply eq_true_iff_eq. rewrite !existsb_exists. split; intros [x [Hx T]]; exists x; split; try apply H; assumption.
Qed.

(* an integer mask made of defined bits only: decoding and re-encoding gives it back *)
Definition mask_defined (z : Z) : Prop := exists l, Forall (fun x => In x mask_bits) l /\ z = sql_mask_out l.
Lemma mask_int_roundtrip : forall z, mask_defined z -> sql_mask_out (sql_mask_in z) = z.
Proof.
  intros z [l [Hl ->]]. rewrite sql_mask_in_out by exact Hl.
  apply mask_out_same_set. intro b. apply canon_mask_same_set. exact Hl.
Qed.

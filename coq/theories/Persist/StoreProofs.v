(* C05 - the SQL hop on whole objects, the attribute path of Register, what one step of a history does to the rows. *)
From Coq Require Import ZArith List Bool Lia.
From PKGen Require Import PieColumns.
From PK Require Import Persist.Model Persist.DecoratorProofs Persist.ChainProofs.
Import ListNotations.
Open Scope Z_scope.

(* columns of tables the class does not have are absent, and every enumeration differs from the NULL sentinel *)
Definition shape_ok (p : pobj) : Prop :=
  (if is_key (p_class p) then p_sub p = None else p_alg p = None /\ p_len p = None /\ p_fmt p = None /\ p_kc p = kc_none) /\
  match p_class p with CSplit => True | _ => p_spm p = None end.
Definition penums_ok (p : pobj) : Prop :=
  enum_ok (p_alg p) /\ enum_ok (p_fmt p) /\ kc_enums_ok (p_kc p) /\ enum_ok (p_spm p) /\ enum_ok (p_sub p).

Lemma sql_core_roundtrip : forall p, shape_ok p -> penums_ok p -> same_core (sql_in (sql_out p)) p.
Proof.
  intros p [S1 S2] (E1 & E2 & E3 & E4 & E5).
  unfold same_core. simpl.
  rewrite !sql_enum_in_out, kc_sql_roundtrip by assumption.
  assert (Hspm : match p_class p with CSplit => p_spm p | _ => None end = p_spm p)
    by (destruct (p_class p); first [reflexivity|symmetry; exact S2]).
  rewrite Hspm. destruct (is_key (p_class p)).
  - rewrite S1. repeat split.
  - destruct S1 as (-> & -> & -> & ->). repeat split.
Qed.

Lemma same_core_sym : forall p q, same_core p q -> same_core q p.
Proof. intros p q H. unfold same_core in *. intuition congruence. Qed.

Lemma core_to_pie_shape : forall s p, core_to_pie s = Ok p -> enums_ok s -> shape_ok p /\ penums_ok p.
Proof.
  intros s p H He. apply core_to_pie_inv in H. destruct s as [c kb|kb sp|ct v|dt kb|ot v]; simpl in He.
  3-5: subst p; split; [repeat split|exact (conj enum_ok_None (conj enum_ok_None (conj kc_none_ok (conj enum_ok_None He))))].
  - destruct H as (K & _ & ->). destruct He as (Hf & Ha & Hw).
    split; [destruct K as [->|[->| ->]]; split; reflexivity|].
    exact (conj Ha (conj Hf (conj (kwd_cols_enums _ Hw) (conj enum_ok_None enum_ok_None)))).
  - destruct H as (_ & ->). destruct He as [(Hf & Ha & Hw) Hm]. split; [split; reflexivity|].
    exact (conj Ha (conj Hf (conj (kwd_cols_enums _ Hw) (conj Hm enum_ok_None)))).
Qed.

Definition mask_list (l : list tattr) : list Z := match sel_mask l with Some z => filter (bit_set z) mask_bits | None => [] end.

(* what _set_attributes_on_managed_object makes of an object that had no attributes yet, with the two fields Register sets *)
Definition with_attrs (p : pobj) (l : list tattr) (ini : Z) (own : option str) : pobj :=
  mkP (p_class p) (p_value p) (p_alg p) (p_len p) (p_fmt p) (p_kc p) (p_parts p) (p_ident p) (p_thresh p) (p_spm p) (p_prime p)
      (p_sub p) (p_state p) (mask_list l) (sel_names l) (sel_groups l) (sel_asi l)
      (match sel_sens l with Some b => b | None => false end) (sel_policy l) ini own.

Definition no_attrs (p : pobj) : Prop :=
  p_names p = [] /\ p_groups p = [] /\ p_asi p = [] /\ p_sensitive p = false /\ p_policy p = None /\ p_masks p = [].

(* the attributes do not touch the object itself: a key has its algorithm already, and a length must agree *)
Lemma apply_attrs_inv : forall v p l q, apply_attrs v p l = Ok q -> no_attrs p ->
  (is_key (p_class p) = true -> p_alg p <> None /\ (sel_len l = None \/ sel_len l = p_len p)) ->
  q = with_attrs p l (p_initial p) (p_owner p).
Proof.
  intros v p l q H (I2 & I3 & I4 & I5 & I6 & I7) Hk. unfold apply_attrs in H.
  case_if H. case_if H. case_if H.
  apply bind_inv in H as (alg & Ea & H). apply bind_inv in H as (len & El & H). apply bind_inv in H as (masks & Em & H).
  apply bind_inv in H as (pol & Ep & H). apply bind_inv in H as (sens & Es & H). injection H as <-.
  rewrite I2, I3, I4. unfold with_attrs. simpl app.
  assert (alg = p_alg p) as ->.
  { destruct (sel_alg l) as [z|]; [|injection Ea as <-; reflexivity].
    destruct (is_key (p_class p)); [|discriminate Ea]. destruct (Hk eq_refl) as [Ha _].
    destruct (p_alg p) as [x|]; [|contradiction]. destruct (x =? z); [injection Ea as <-; reflexivity|discriminate Ea]. }
  assert (len = p_len p) as ->.
  { destruct (sel_len l) as [z|]; [|injection El as <-; reflexivity].
    destruct (is_key (p_class p)); [|discriminate El]. destruct (Hk eq_refl) as [_ [Hl|Hl]]; [discriminate Hl|].
    destruct (t_int (p_len p)); [|injection El as <-; exact Hl].
    destruct (opt_eqb Z.eqb (p_len p) (Some z)); [injection El as <-; reflexivity|discriminate El]. }
  assert (masks = mask_list l) as ->.
  { rewrite I7 in Em. unfold mask_list. destruct (sel_mask l); cbv beta iota zeta in Em; congruence. }
  assert (pol = sel_policy l) as -> by (rewrite I6 in Ep; destruct (sel_policy l); injection Ep as <-; reflexivity).
  assert (sens = match sel_sens l with Some b => b | None => false end) as ->
    by (rewrite I5 in Es; destruct (sel_sens l); injection Es as <-; reflexivity).
  reflexivity.
Qed.

(* the wire hop of KMIP 2.0 only drops indices, which no selector looks at *)
Lemma flat_map_wire : forall (A : Type) (g : tattr -> list A) v l,
  (forall i x, g (mkTA i x) = g (mkTA None x)) -> flat_map g (wire_attrs v l) = flat_map g l.
Proof.
  intros A g v l Hg. unfold wire_attrs. destruct (ver_ge v (2, 0)); [|reflexivity].
  induction l as [|[i x] l IH]; simpl; [reflexivity|]. rewrite IH, <- (Hg i x). reflexivity.
Qed.
Lemma sel_len_wire : forall v l, sel_len (wire_attrs v l) = sel_len l.
Proof. intros. unfold sel_len. rewrite flat_map_wire by reflexivity. reflexivity. Qed.
Lemma with_attrs_wire : forall p v l ini own, with_attrs p (wire_attrs v l) ini own = with_attrs p l ini own.
Proof.
  intros. unfold with_attrs, mask_list, sel_mask, sel_names, sel_groups, sel_asi, sel_sens, sel_policy.
  rewrite !flat_map_wire by reflexivity. reflexivity.
Qed.

Definition len_attr_consistent (s : secret) (l : list tattr) : Prop := sel_len l = None \/ sel_len l = secret_len s.

Lemma core_to_pie_fresh : forall s p, core_to_pie s = Ok p ->
  no_attrs p /\ p_class p = secret_class s /\ p_state p = (if is_crypto (secret_class s) then Some ST_PRE_ACTIVE else None) /\
  (is_key (p_class p) = true -> p_alg p <> None /\ p_len p = secret_len s).
Proof.
  intros s p H. apply core_to_pie_inv in H. destruct s as [c kb|kb sp|ct v|dt kb|ot v].
  3-5: subst p; repeat split; discriminate.
  - destruct H as (_ & A & ->). repeat split. exact A.
  - destruct H as (A & ->). repeat split. exact A.
Qed.

Lemma register_pie_inv : forall v o n s l a, register_pie v o n s l = Ok a -> len_attr_consistent s l ->
  exists p, core_to_pie s = Ok p /\ a = with_attrs p l n (Some o).
Proof.
  intros v o n s l a H Hl. unfold register_pie in H. apply bind_inv in H as (p & C & H). apply bind_inv in H as (q & A & H).
  injection H as <-. exists p. split; [exact C|]. destruct (core_to_pie_fresh _ _ C) as (N & _ & _ & K).
  rewrite (apply_attrs_inv _ _ _ _ A N); [reflexivity|].
  intro Hk. destruct (K Hk) as [Ha Hlen]. split; [exact Ha|]. rewrite Hlen. exact Hl.
Qed.

(* the row Register writes reads back with the object's own fields intact *)
Lemma registered_row : forall v o n s l a, enums_ok s -> len_attr_consistent s l ->
  register_pie v o n s (wire_attrs v l) = Ok a ->
  exists p, core_to_pie s = Ok p /\ a = with_attrs p l n (Some o) /\ same_core (sql_in (sql_out a)) p.
Proof.
  intros v o n s l a He Hl H. unfold len_attr_consistent in Hl. rewrite <- (sel_len_wire v) in Hl.
  destruct (register_pie_inv _ _ _ _ _ _ H Hl) as (p & C & ->). exists p. split; [exact C|]. split; [apply with_attrs_wire|].
  destruct (core_to_pie_shape _ _ C He) as [Sh En]. exact (sql_core_roundtrip (with_attrs p l n (Some o)) Sh En).
Qed.

Definition store_ok (st : store) : Prop := Forall (fun kr => fst kr < s_next st) (s_rows st).

Lemma find_row_app_fresh : forall rows u r, Forall (fun kr => fst kr < u) rows -> find_row u (rows ++ [(u, r)]) = Some r.
Proof.
  induction rows as [|[k x] rows IH]; intros u r F; simpl.
  - rewrite Z.eqb_refl. reflexivity.
  - inversion F; subst. simpl in H1. destruct (k =? u) eqn:E; [apply Z.eqb_eq in E; lia|]. apply IH. assumption.
Qed.
Lemma find_row_app_old : forall rows u r x, find_row u rows = Some x -> find_row u (rows ++ r) = Some x.
Proof.
  induction rows as [|[k y] rows IH]; intros u r x H; simpl in *; [discriminate H|].
  destruct (k =? u); [exact H|]. apply IH. exact H.
Qed.
Lemma find_row_bound : forall rows u x n, Forall (fun kr => fst kr < n) rows -> find_row u rows = Some x -> u < n.
Proof.
  induction rows as [|[k y] rows IH]; intros u x n F H; simpl in *; [discriminate H|]. inversion F; subst. simpl in H2.
  destruct (k =? u) eqn:E; [apply Z.eqb_eq in E; lia|]. eapply IH; eassumption.
Qed.

Lemma find_update_row : forall rows u u' f, find_row u (update_row u' f rows) =
  match find_row u rows with Some r => Some (if u =? u' then f r else r) | None => None end.
Proof.
  induction rows as [|[k y] rows IH]; intros u u' f; simpl; [reflexivity|].
  destruct (Z.eqb_spec k u') as [E1|N1]; simpl; destruct (Z.eqb_spec k u) as [E2|N2]; subst.
  - rewrite Z.eqb_refl. reflexivity.
  - (* rows after the first hit are untouched *)
    destruct (find_row u rows); [|reflexivity]. destruct (Z.eqb_spec u u'); [congruence|reflexivity].
  - destruct (Z.eqb_spec u u'); [congruence|reflexivity].
  - apply IH.
Qed.
Lemma find_remove_row : forall rows u u', u <> u' -> find_row u (remove_row u' rows) = find_row u rows.
Proof.
  induction rows as [|[k y] rows IH]; intros u u' Ne; simpl; [reflexivity|].
  destruct (Z.eqb_spec k u') as [E1|N1]; simpl.
  - destruct (Z.eqb_spec k u); [congruence|reflexivity].
  - destruct (k =? u); [reflexivity|]. apply IH. exact Ne.
Qed.
Lemma update_row_bound : forall rows u f n, Forall (fun kr : Z * prow => fst kr < n) rows -> Forall (fun kr => fst kr < n) (update_row u f rows).
Proof.
  induction rows as [|[k y] rows IH]; intros u f n F; simpl; [constructor|]. inversion F; subst.
  destruct (k =? u); constructor; simpl in *; try assumption. apply IH. assumption.
Qed.
Lemma remove_row_bound : forall rows u n, Forall (fun kr : Z * prow => fst kr < n) rows -> Forall (fun kr => fst kr < n) (remove_row u rows).
Proof.
  induction rows as [|[k y] rows IH]; intros u n F; simpl; [constructor|]. inversion F; subst.
  destruct (k =? u); [assumption|]. constructor; [assumption|]. apply IH. assumption.
Qed.

Lemma srv_register_inv : forall v o n s l st st' u, srv_register v o n s l st = Ok (st', u) ->
  exists a, register_pie v o n s (wire_attrs v l) = Ok a /\ u = s_next st /\
            st' = mkS (s_rows st ++ [(u, sql_out a)]) (u + 1) (Some u).
Proof.
  intros v o n s l st st' u H. unfold srv_register in H. apply bind_inv in H as (a & E & H). injection H as <- <-.
  exists a. repeat split. exact E.
Qed.

(* st' has the rows of st, then rows whose keys are below its counter; the counter did not go down *)
Definition grows (st st' : store) : Prop :=
  exists rs, s_rows st' = s_rows st ++ rs /\ Forall (fun kr => fst kr < s_next st') rs /\ s_next st <= s_next st'.

Lemma grows_refl : forall st, grows st st.
Proof. intro st. exists []. rewrite app_nil_r. repeat split; [constructor|lia]. Qed.
Lemma grows_trans : forall a b c, grows a b -> grows b c -> grows a c.
Proof.
  intros a b c (r1 & E1 & F1 & N1) (r2 & E2 & F2 & N2). exists (r1 ++ r2). rewrite E2, E1, app_assoc.
  repeat split; [|lia]. apply Forall_app. split; [|exact F2]. eapply Forall_impl; [|exact F1]. simpl. intros; lia.
Qed.
Lemma register_grows : forall v o n s l st st' u, srv_register v o n s l st = Ok (st', u) -> grows st st'.
Proof.
  intros v o n s l st st' u H. destruct (srv_register_inv _ _ _ _ _ _ _ _ H) as (a & _ & -> & ->).
  exists [(s_next st, sql_out a)]. simpl. repeat split; [|lia]. constructor; [simpl; lia|constructor].
Qed.
Lemma grows_store_ok : forall st st', store_ok st -> grows st st' -> store_ok st'.
Proof.
  intros st st' F (rs & E & Fr & N). unfold store_ok. rewrite E. apply Forall_app. split; [|exact Fr].
  eapply Forall_impl; [|exact F]. simpl. intros; lia.
Qed.
Lemma grows_find : forall st st' u r, grows st st' -> find_row u (s_rows st) = Some r -> find_row u (s_rows st') = Some r.
Proof. intros st st' u r (rs & E & _) Fr. rewrite E. apply find_row_app_old. exact Fr. Qed.

Definition with_state (z : Z) (r : prow) : prow :=
  mkP (p_class r) (p_value r) (p_alg r) (p_len r) (p_fmt r) (p_kc r) (p_parts r) (p_ident r) (p_thresh r) (p_spm r)
      (p_prime r) (p_sub r) z (p_masks r) (p_names r) (p_groups r) (p_asi r) (p_sensitive r) (p_policy r) (p_initial r) (p_owner r).

Definition activate_row (r : prow) : prow :=
  if is_crypto (p_class r) && (p_state r =? ST_PRE_ACTIVE) then with_state ST_ACTIVE r else r.

Lemma activate_row_idem : forall r, activate_row (activate_row r) = activate_row r.
Proof.
  intro r. unfold activate_row. destruct (is_crypto (p_class r) && (p_state r =? ST_PRE_ACTIVE)) eqn:E; simpl.
  - rewrite andb_false_r. reflexivity.
  - rewrite E. reflexivity.
Qed.

Definition not_destroying (u : Z) (h : hop) : Prop := match h with HDestroy u' => u' <> u | _ => True end.

Lemma make_pair_inv : forall v o n fu mu fr mr lc lu lr st st' u1 u2,
  srv_make_pair v o n fu mu fr mr lc lu lr st = Ok (st', (u1, u2)) ->
  exists su sr st1,
    pair_secret CPub fu mu (resolve lc lu) = Ok su /\ pair_secret CPriv fr mr (resolve lc lr) = Ok sr /\
    srv_register v o n su (resolve lc lu) st = Ok (st1, u1) /\ srv_register v o n sr (resolve lc lr) st1 = Ok (st', u2).
Proof.
  intros v o n fu mu fr mr lc lu lr st st' u1 u2 H. unfold srv_make_pair in H.
  case_if H. apply bind_inv in H as (su & P1 & H). apply bind_inv in H as (sr & P2 & H). case_if H.
  apply bind_inv in H as ([st1 x1] & R1 & H). apply bind_inv in H as ([st2 x2] & R2 & H). injection H as <- <- <-.
  exists su, sr, st1. repeat split; assumption.
Qed.

(* Create, DeriveKey and CreateKeyPair steps are made of Register steps: what every Register step preserves, they preserve *)
Definition from_template (h : hop) : bool :=
  match h with HMake _ _ _ _ _ _ | HMakePair _ _ _ _ _ _ _ _ _ _ => true | _ => false end.

Lemma template_step : forall P : store -> Prop,
  (forall st v o n s l, P st -> P (step st (HRegister v o n s l))) ->
  forall st h, from_template h = true -> P st -> P (step st h).
Proof.
  intros P Reg st h T H. destruct h as [| | | | | |k v o n mat l|v o n fu mu fr mr lc lu lr]; try discriminate T; simpl.
  - unfold srv_make. destruct (made_secret k mat l) as [s|]; [exact (Reg st v o n s (made_attrs k l) H)|exact H].
  - destruct (srv_make_pair v o n fu mu fr mr lc lu lr st) as [[st' [u1 u2]]|] eqn:E; [|exact H].
    destruct (make_pair_inv _ _ _ _ _ _ _ _ _ _ _ _ _ _ E) as (su & sr & st1 & _ & _ & R1 & R2).
    pose proof (Reg st v o n su (resolve lc lu) H) as H1. simpl in H1. rewrite R1 in H1.
    pose proof (Reg st1 v o n sr (resolve lc lr) H1) as H2. simpl in H2. rewrite R2 in H2. exact H2.
Qed.

(* what one step does to the rows *)
Lemma step_rows : forall st h,
  match h with
  | HActivate u => s_rows (step st h) = update_row u activate_row (s_rows st) /\ s_next (step st h) = s_next st
  | HDestroy u => s_rows (step st h) = remove_row u (s_rows st) /\ s_next (step st h) = s_next st
  | _ => grows st (step st h)
  end.
Proof.
  assert (Reg : forall st0 st v o n s l, grows st0 st -> grows st0 (step st (HRegister v o n s l))).
  { intros st0 st v o n s l G. simpl. destruct (srv_register v o n s l st) as [[st' u]|] eqn:R; [|exact G].
    exact (grows_trans _ _ _ G (register_grows _ _ _ _ _ _ _ _ R)). }
  intros st h. destruct h as [v o n s l| |u|u| | |k v o n mat l|v o n fu mu fr mr lc lu lr].
  - apply Reg. apply grows_refl.
  - apply grows_refl.
  - split; reflexivity.
  - split; reflexivity.
  - exact (grows_refl st).
  - exists []. simpl. rewrite app_nil_r. repeat split; [constructor|lia].
  - apply (template_step (grows st) (Reg st)); [reflexivity|apply grows_refl].
  - apply (template_step (grows st) (Reg st)); [reflexivity|apply grows_refl].
Qed.

Lemma step_store_ok : forall st h, store_ok st -> store_ok (step st h).
Proof.
  intros st h F. pose proof (step_rows st h) as R.
  destruct h as [| |u|u| | | |]; try exact (grows_store_ok _ _ F R); destruct R as [Rr Rn]; unfold store_ok; rewrite Rr, Rn.
  - apply update_row_bound. exact F.
  - apply remove_row_bound. exact F.
Qed.

Lemma store0_ok : store_ok store0. Proof. constructor. Qed.
Lemma run_store_ok : forall h st, store_ok st -> store_ok (run st h).
Proof. induction h as [|x h IH]; intros st F; simpl; [exact F|]. apply IH. apply step_store_ok. exact F. Qed.

(* a restart changes nothing that is stored *)
Lemma restart_keeps_rows : forall st, s_rows (step st HRestart) = s_rows st /\ s_next (step st HRestart) = s_next st.
Proof. intro st. split; reflexivity. Qed.

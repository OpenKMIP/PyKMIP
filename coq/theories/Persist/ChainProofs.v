(* C05 - key wrapping data between its core form and the _kdw_ columns, the enumerations that survive the EnumType columns,
   and ObjectFactory.convert core -> pie -> core on every object type. *)
From Coq Require Import ZArith List Bool Lia.
From PKGen Require Import PieColumns.
From PK Require Import Persist.Model Persist.DecoratorProofs.
Import ListNotations.
Open Scope Z_scope.

Lemma bind_inv : forall (A B : Type) (r : res A) (f : A -> res B) b, bind r f = Ok b -> exists a, r = Ok a /\ f a = Ok b.
Proof. intros A B [a|] f b H; [exists a; split; [reflexivity|exact H]|discriminate H]. Qed.

(* H : (if b then _ else _) = Ok _: split on b and drop the branch that is Err *)
Ltac case_if H :=
  match type of H with
  | (if ?b then _ else _) = _ => let B := fresh "B" in destruct b eqn:B; try discriminate H
  end.

Definition ki_ok (k : option keyinfo) : Prop :=
  match k with
  | None => True
  | Some ki => match ki_cp ki with Some c => cp_any c = true | None => True end
  end.
(* the hypothesis that excludes exactly the remaining known finding: a cryptographic-parameters structure that is present
   has at least one field set (a present but completely empty structure cannot be told from an absent one in the columns) *)
Definition kwd_no_empty_params (w : option kwd) : Prop :=
  match w with None => True | Some w => ki_ok (kw_eki w) /\ ki_ok (kw_mski w) end.

(* ObjectFactory._build_key_wrapping_data cannot fail (fix 546e738): the dictionary and the columns of any wrapping data *)
Definition ki_dict (k : option keyinfo) : option kidict := option_map (fun ki => mkKID (Some (ki_uid ki)) (ki_cp ki)) k.
Definition kwd_cols (w : option kwd) : kcols :=
  kc_set (option_map (fun w => mkKWD (Some (kw_method w)) (ki_dict (kw_eki w)) (ki_dict (kw_mski w)) (kw_mac w) (kw_iv w) (kw_enc w)) w).

Lemma kwd_flatten_total : forall w, kwd_flatten w = Ok (kwd_cols w).
Proof. intros [[m [e|] [s|] mac iv enc]|]; reflexivity. Qed.

Lemma ki_roundtrip : forall k, ki_ok k -> dict_to_ki (ki_get (kid_uid (ki_dict k)) (kid_cp (ki_dict k))) = Ok k.
Proof.
  intros [[u [c|]]|] H; [|reflexivity|reflexivity].
  unfold ki_get, kid_uid, kid_cp. cbn [ki_dict option_map kd_uid kd_cp ki_uid ki_cp is_set orb]. simpl in H. rewrite H. reflexivity.
Qed.

Lemma kwd_unflatten_cols : forall w, kwd_no_empty_params w -> kwd_unflatten (kwd_cols w) = Ok w.
Proof.
  intros [[m e s mac iv enc]|] H; [|reflexivity]. destruct H as [He Hs].
  unfold kwd_unflatten, kwd_cols, kc_get, dict_to_kwd. simpl. rewrite (ki_roundtrip e He), (ki_roundtrip s Hs). reflexivity.
Qed.

(* a falsy value in every kind of field (the case of fix 46c741e) *)
Definition kwd_falsy : option kwd :=
  Some (mkKW 1 (Some (mkKI [] (Some (mkCP None None None None None None (Some false) (Some 0) None None None None None)))) None (Some []) None (Some 1)).

(* enumerations inside the wrapping data survive the EnumType columns *)
Definition cp_enums_ok (c : cparams) : Prop :=
  enum_ok (cp_bcm c) /\ enum_ok (cp_pad c) /\ enum_ok (cp_hash c) /\ enum_ok (cp_role c) /\ enum_ok (cp_dsa c) /\ enum_ok (cp_alg c).
Definition kc_enums_ok (k : kcols) : Prop :=
  enum_ok (kc_method k) /\ enum_ok (kc_enc k) /\ cp_enums_ok (kc_ecp k) /\ cp_enums_ok (kc_mcp k).

Lemma cp_sql_roundtrip : forall c, cp_enums_ok c -> cp_map sql_enum_in (cp_map sql_enum_out c) = c.
Proof.
  intros c (H1 & H2 & H3 & H4 & H5 & H6). destruct c; simpl in *. unfold cp_map; simpl.
  rewrite !sql_enum_in_out by assumption. reflexivity.
Qed.
Lemma kc_sql_roundtrip : forall k, kc_enums_ok k -> kc_map sql_enum_in (kc_map sql_enum_out k) = k.
Proof.
  intros k (H1 & H2 & H3 & H4). destruct k; simpl in *. unfold kc_map; simpl.
  rewrite !cp_sql_roundtrip by assumption. rewrite !sql_enum_in_out by assumption. reflexivity.
Qed.
Lemma cp_none_ok : cp_enums_ok cp_none. Proof. repeat split; intro H; discriminate H. Qed.
Lemma kc_none_ok : kc_enums_ok kc_none. Proof. repeat split; intro H; discriminate H. Qed.

Definition ki_enums_ok (k : option keyinfo) : Prop :=
  match k with Some ki => match ki_cp ki with Some c => cp_enums_ok c | None => True end | None => True end.
Definition kwd_enums_ok (w : option kwd) : Prop :=
  match w with
  | None => True
  | Some w => enum_ok (Some (kw_method w)) /\ enum_ok (kw_enc w) /\ ki_enums_ok (kw_eki w) /\ ki_enums_ok (kw_mski w)
  end.

Lemma ki_dict_enums : forall k, ki_enums_ok k -> cp_enums_ok (kid_cp (ki_dict k)).
Proof. intros [[u [c|]]|] H; [exact H|apply cp_none_ok|apply cp_none_ok]. Qed.
Lemma kwd_cols_enums : forall w, kwd_enums_ok w -> kc_enums_ok (kwd_cols w).
Proof.
  intros [[m e s mac iv enc]|] H; [|apply kc_none_ok]. destruct H as (Hm & Henc & He & Hs).
  exact (conj Hm (conj Henc (conj (ki_dict_enums e He) (ki_dict_enums s Hs)))).
Qed.

Definition kb_wf (kb : keyblock) : Prop := kwd_no_empty_params (kb_kwd kb).
(* excludes exactly the two known findings about Get: empty parameter structures, and Secret Data key block extras *)
Definition wf_secret (s : secret) : Prop :=
  match s with
  | SKey _ kb => kb_wf kb
  | SSplit kb _ => kb_wf kb
  | SCert _ _ => True
  | SSecret _ kb => kb_fmt kb = KFT_OPAQUE /\ kb_alg kb = None /\ kb_len kb = None /\ kb_kwd kb = None
  | SOpaque _ _ => True
  end.
(* every enumeration value is an integer other than the NULL sentinel (true of every member: stored_members_never_null) *)
Definition kb_enums_ok (kb : keyblock) : Prop := enum_ok (Some (kb_fmt kb)) /\ enum_ok (kb_alg kb) /\ kwd_enums_ok (kb_kwd kb).
Definition enums_ok (s : secret) : Prop :=
  match s with
  | SKey _ kb => kb_enums_ok kb
  | SSplit kb sp => kb_enums_ok kb /\ enum_ok (Some (sp_method sp))
  | SCert ct _ => enum_ok (Some ct)
  | SSecret dt _ => enum_ok (Some dt)
  | SOpaque ot _ => enum_ok (Some ot)
  end.

(* a pie object as its constructor leaves it: key material and type-specific fields, no attributes yet *)
Definition fresh_pie (c : oclass) (v : bytes) (alg len fmt : option Z) (k : kcols) (pa pi pt spm prime sub : option Z) : pobj :=
  mkP c v alg len fmt k pa pi pt spm prime sub (if is_crypto c then Some ST_PRE_ACTIVE else None) [] [] [] [] false None 0 None.

Lemma key_to_pie_inv : forall c kb p, key_to_pie c kb = Ok p ->
  kb_alg kb <> None /\
  p = fresh_pie c (kb_value kb) (kb_alg kb) (kb_len kb) (Some (kb_fmt kb)) (kwd_cols (kb_kwd kb)) None None None None None None.
Proof.
  intros c kb p H. unfold key_to_pie in H. destruct (kb_alg kb); [|discriminate H]. destruct (kb_len kb); [|discriminate H].
  rewrite kwd_flatten_total in H. injection H as <-. split; [discriminate|reflexivity].
Qed.

Lemma core_to_pie_inv : forall s p, core_to_pie s = Ok p ->
  match s with
  | SKey c kb => (c = CSym \/ c = CPub \/ c = CPriv) /\ kb_alg kb <> None /\
      p = fresh_pie c (kb_value kb) (kb_alg kb) (kb_len kb) (Some (kb_fmt kb)) (kwd_cols (kb_kwd kb)) None None None None None None
  | SSplit kb sp => kb_alg kb <> None /\
      p = fresh_pie CSplit (kb_value kb) (kb_alg kb) (kb_len kb) (Some (kb_fmt kb)) (kwd_cols (kb_kwd kb))
            (Some (sp_parts sp)) (Some (sp_ident sp)) (Some (sp_thresh sp)) (Some (sp_method sp)) (sp_prime sp) None
  | SCert ct v => p = fresh_pie CCert v None None None kc_none None None None None None (Some ct)
  | SSecret dt kb => p = fresh_pie CSecret (kb_value kb) None None None kc_none None None None None None (Some dt)
  | SOpaque ot v => p = fresh_pie COpaque v None None None kc_none None None None None None (Some ot)
  end.
Proof.
  intros s p H. destruct s as [c kb|kb sp|ct v|dt kb|ot v]; simpl in H.
  - assert (K : (c = CSym \/ c = CPub \/ c = CPriv) /\ key_to_pie c kb = Ok p).
    { destruct c; try discriminate H.
      - apply bind_inv in H as (q & E & H). split; [auto|]. case_if H.
        destruct (kc_get (p_kc q)); [|case_if H]; injection H as <-; exact E.
      - case_if H. split; [auto|exact H].
      - case_if H. split; [auto|exact H]. }
    destruct K as [K E]. split; [exact K|]. apply key_to_pie_inv. exact E.
  - apply bind_inv in H as (q & E & H). case_if H. injection H as <-.
    apply key_to_pie_inv in E as (A & ->). split; [exact A|reflexivity].
  - case_if H. injection H as <-. reflexivity.
  - injection H as <-. reflexivity.
  - injection H as <-. reflexivity.
Qed.

(* ObjectFactory.convert: core -> pie -> core *)
Lemma pie_keyblock_fresh : forall c kb pa pi pt spm prime sub, kb_wf kb ->
  pie_keyblock (fresh_pie c (kb_value kb) (kb_alg kb) (kb_len kb) (Some (kb_fmt kb)) (kwd_cols (kb_kwd kb)) pa pi pt spm prime sub) = Ok kb.
Proof.
  intros c kb pa pi pt spm prime sub Hwf. unfold pie_keyblock. cbn [fresh_pie p_fmt p_kc p_value p_alg p_len].
  rewrite (kwd_unflatten_cols _ Hwf). destruct kb; reflexivity.
Qed.

Lemma core_pie_core : forall s p, wf_secret s -> core_to_pie s = Ok p -> pie_to_core p = Ok s.
Proof.
  intros s p Hwf H. apply core_to_pie_inv in H. destruct s as [c kb|kb sp|ct v|dt kb|ot v]; simpl in Hwf.
  - destruct H as (K & _ & ->). unfold pie_to_core. rewrite pie_keyblock_fresh by exact Hwf.
    destruct K as [->|[->| ->]]; reflexivity.
  - destruct H as (_ & ->). unfold pie_to_core. rewrite pie_keyblock_fresh by exact Hwf. destruct sp; reflexivity.
  - subst p. reflexivity.
  - subst p. destruct Hwf as (F & A & L & W). destruct kb; simpl in *; subst. reflexivity.
  - subst p. reflexivity.
Qed.

Definition same_core (p q : pobj) : Prop :=
  p_class p = p_class q /\ p_value p = p_value q /\ p_alg p = p_alg q /\ p_len p = p_len q /\ p_fmt p = p_fmt q /\ p_kc p = p_kc q /\
  p_parts p = p_parts q /\ p_ident p = p_ident q /\ p_thresh p = p_thresh q /\ p_spm p = p_spm q /\ p_prime p = p_prime q /\ p_sub p = p_sub q.

Lemma same_core_refl : forall p, same_core p p. Proof. intro; repeat split. Qed.
Lemma same_core_get : forall p q, same_core p q -> pie_to_core p = pie_to_core q.
Proof.
  intros p q (H1 & H2 & H3 & H4 & H5 & H6 & H7 & H8 & H9 & H10 & H11 & H12).
  unfold pie_to_core, pie_keyblock. rewrite H1, H2, H3, H4, H5, H6, H7, H8, H9, H10, H11, H12. reflexivity.
Qed.

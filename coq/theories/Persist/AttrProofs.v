(* C05 - GetAttributes of a registered object = supplied + server-assigned attributes; Get and GetAttributes at any later
   point of any history. *)
From Coq Require Import ZArith List Bool Lia.
From PKGen Require Import PieColumns.
From PK Require Import Persist.Model Persist.DecoratorProofs Persist.ChainProofs Persist.StoreProofs.
Import ListNotations.
Open Scope Z_scope.

Lemma names_roundtrip : forall l k, names_in (names_out k l) = l.
Proof. induction l as [|n l IH]; intro k; simpl; [reflexivity|]. rewrite IH. reflexivity. Qed.

Lemma sel_typed_names_wire : forall v l, sel_typed_names (wire_attrs v l) = sel_typed_names l.
Proof. intros. apply flat_map_wire. reflexivity. Qed.

(* hypotheses that exclude exactly the known finding about names, and values outside the attribute's domain *)
Definition names_untyped (l : list tattr) : Prop := Forall (fun nt => snd nt = NT_TEXT) (sel_typed_names l).
Definition mask_attr_defined (l : list tattr) : Prop := match sel_mask l with Some z => mask_defined z | None => True end.

Lemma indexed_names : forall l i, Forall (fun nt => snd nt = NT_TEXT) (sel_typed_names l) ->
  indexed A_NAME i (fun n => VName n NT_TEXT) (sel_names l) = indexed A_NAME i (fun n => VName (fst n) (snd n)) (sel_typed_names l).
Proof.
  induction l as [|t l IH]; intros i F; simpl; [reflexivity|].
  destruct t as [ix tv]. destruct tv; simpl in *; try (apply IH; exact F).
  inversion F; subst. simpl in H1. rewrite H1. rewrite IH by assumption. reflexivity.
Qed.

Lemma mask_list_reads_back : forall l, mask_attr_defined l ->
  sql_mask_out (sql_mask_in (sql_mask_out (mask_list l))) = (match sel_mask l with Some m => m | None => 0 end).
Proof.
  intros l H. unfold mask_list, mask_attr_defined in *. destruct (sel_mask l) as [z|]; [|reflexivity].
  rewrite <- sql_mask_in_filter, !(mask_int_roundtrip z H). reflexivity.
Qed.

(* GetAttributes computed from the stored row of a registered object, whatever (valid) state the row carries *)
Lemma attrs_of_stored_row : forall o n s l p u v' z,
  core_to_pie s = Ok p -> same_core (sql_in (sql_out (with_attrs p l n o))) p -> names_untyped l -> mask_attr_defined l ->
  sql_enum_in z = Some z ->
  pie_attrs v' u (sql_in (with_state z (sql_out (with_attrs p l n o)))) = expected_attrs v' u n z s l.
Proof.
  intros o n s l p u v' z C R Hn Hm Hz.
  (* of the twelve equations of same_core: algorithm, length, and certificate / data / opaque type *)
  destruct R as (_ & _ & R3 & R4 & _ & _ & _ & _ & _ & _ & _ & R12). simpl in R3, R4, R12.
  unfold pie_attrs, expected_attrs.
  cbn [sql_in sql_out with_state with_attrs p_class p_names p_groups p_asi p_sensitive p_policy p_initial p_masks p_state p_alg
       p_len p_sub].
  rewrite names_roundtrip, (indexed_names l 0 Hn), R3, R4, R12.
  apply core_to_pie_inv in C.
  destruct s as [c kb|kb sp|ct vv|dt kb|ot vv];
    [destruct C as ([->|[->| ->]] & _ & ->)|destruct C as (_ & ->)|subst p|subst p|subst p];
    cbn [fresh_pie p_class p_alg p_len p_sub p_state secret_class secret_alg secret_len is_key is_crypto option_map] in *.
  (* goals: symmetric, public, private, split key, certificate (every attribute applies), then secret data, then opaque object *)
  1-5: rewrite (mask_list_reads_back l Hm), Hz; destruct (sel_policy l); reflexivity.
  - (* Certificate Type applies to certificates only *)
    rewrite (mask_list_reads_back l Hm), Hz. replace (a_applicable A_CTYPE CSecret) with false by reflexivity. rewrite !andb_false_r.
    destruct (sel_policy l); reflexivity.
  - (* nor do Usage Mask and State apply to opaque objects *)
    replace (a_applicable A_CTYPE COpaque) with false by reflexivity.
    replace (a_applicable A_MASK COpaque) with false by reflexivity.
    replace (a_applicable A_STATE COpaque) with false by reflexivity.
    rewrite !andb_false_r. destruct (sel_policy l); reflexivity.
Qed.

Definition acted (u : Z) (h : list hop) : bool :=
  existsb (fun x => match x with HActivate u' => u' =? u | _ => false end) h.

Definition maybe_activated (r : prow) (b : bool) : prow := if b then activate_row r else r.

Lemma core_of_maybe_activated : forall r b, pie_to_core (sql_in (maybe_activated r b)) = pie_to_core (sql_in r).
Proof.
  intros r [|]; [|reflexivity]. unfold maybe_activated, activate_row.
  destruct (is_crypto (p_class r) && (p_state r =? ST_PRE_ACTIVE)); [|reflexivity]. apply same_core_get. repeat split.
Qed.

Lemma acted_cons : forall u x h, acted u (x :: h) = acted u [x] || acted u h.
Proof. intros. simpl. rewrite orb_false_r. reflexivity. Qed.

(* the one induction over histories: as long as it is not destroyed, the row of u is the row it started as, activated or not *)
Lemma step_row : forall u r0 st b x, not_destroying u x ->
  find_row u (s_rows st) = Some (maybe_activated r0 b) ->
  find_row u (s_rows (step st x)) = Some (maybe_activated r0 (b || acted u [x])).
Proof.
  intros u r0 st b x Nd Fr. pose proof (step_rows st x) as R.
  destruct x as [| |u'|u'| | | |]; simpl acted; rewrite orb_false_r; try exact (grows_find _ _ _ _ R Fr); rewrite (proj1 R).
  - rewrite find_update_row, Fr, (Z.eqb_sym u u'). destruct (u' =? u); [|rewrite orb_false_r; reflexivity].
    rewrite orb_true_r. destruct b; [simpl; rewrite activate_row_idem|]; reflexivity.
  - rewrite find_remove_row by (simpl in Nd; congruence). exact Fr.
Qed.

Lemma run_row : forall u r0 h st b, Forall (not_destroying u) h ->
  find_row u (s_rows st) = Some (maybe_activated r0 b) ->
  find_row u (s_rows (run st h)) = Some (maybe_activated r0 (b || acted u h)).
Proof.
  intros u r0. induction h as [|x h IH]; intros st b Nd Fr.
  - simpl. rewrite orb_false_r. exact Fr.
  - inversion Nd; subst. rewrite acted_cons, orb_assoc. apply IH; [assumption|]. apply step_row; assumption.
Qed.

Lemma registered_later : forall v o n s l st st' u h,
  store_ok st -> enums_ok s -> len_attr_consistent s l -> srv_register v o n s l st = Ok (st', u) -> Forall (not_destroying u) h ->
  exists p, core_to_pie s = Ok p /\ same_core (sql_in (sql_out (with_attrs p l n (Some o)))) p /\
            find_row u (s_rows (run st' h)) = Some (maybe_activated (sql_out (with_attrs p l n (Some o))) (acted u h)).
Proof.
  intros v o n s l st st' u h F He Hl H Nd. destruct (srv_register_inv _ _ _ _ _ _ _ _ H) as (a & E & -> & ->).
  destruct (registered_row _ _ _ _ _ _ He Hl E) as (p & C & -> & R). exists p. split; [exact C|]. split; [exact R|].
  apply (run_row _ _ h _ false Nd). simpl. apply find_row_app_fresh. exact F.
Qed.

Lemma stored_get_later : forall v o n s l st st' u h,
  store_ok st -> wf_secret s -> enums_ok s -> len_attr_consistent s l ->
  srv_register v o n s l st = Ok (st', u) ->
  Forall (not_destroying u) h ->
  srv_get (run st' h) u = Ok s.
Proof.
  intros v o n s l st st' u h F Hwf He Hl R Nd. destruct (registered_later _ _ _ _ _ _ _ _ _ F He Hl R Nd) as (p & C & Rc & Fr).
  unfold srv_get. rewrite Fr. cbv beta iota. rewrite core_of_maybe_activated, (same_core_get _ _ Rc). apply core_pie_core; assumption.
Qed.

Definition state_after (u : Z) (s : secret) (h : list hop) : Z :=
  if acted u h && is_crypto (secret_class s) then ST_ACTIVE else ST_PRE_ACTIVE.

(* an Activate moves the state column of a cryptographic object once; other objects have none *)
Lemma sql_in_maybe_activated : forall r b, p_state r = sql_enum_out (if is_crypto (p_class r) then Some ST_PRE_ACTIVE else None) ->
  sql_in (maybe_activated r b) = sql_in (with_state (if b && is_crypto (p_class r) then ST_ACTIVE else ST_PRE_ACTIVE) r).
Proof.
  intros r b S. destruct r as [c v alg len fmt kc pa pi pt spm pr sub st ma na gr asi se po ini ow]. simpl in S. subst st.
  destruct c, b; reflexivity.
Qed.

Lemma stored_attrs_later : forall v o n s l st st' u h v',
  store_ok st -> enums_ok s -> len_attr_consistent s l -> names_untyped l -> mask_attr_defined l ->
  srv_register v o n s l st = Ok (st', u) -> Forall (not_destroying u) h ->
  srv_attrs v' (run st' h) u = Ok (expected_attrs v' u n (state_after u s h) s l).
Proof.
  intros v o n s l st st' u h v' F He Hl Hn Hm H Nd. destruct (registered_later _ _ _ _ _ _ _ _ _ F He Hl H Nd) as (p & C & R & Fr).
  unfold srv_attrs, state_after. rewrite Fr. f_equal. destruct (core_to_pie_fresh _ _ C) as (_ & Cl & St & _).
  rewrite sql_in_maybe_activated by (simpl; rewrite St, Cl; reflexivity). simpl p_class. rewrite Cl.
  apply attrs_of_stored_row; try assumption. destruct (acted u h && is_crypto (secret_class s)); reflexivity.
Qed.

(* C05 - objects made from templates (Create, DeriveKey, CreateKeyPair): the attribute side reduces to Register. *)
From Coq Require Import ZArith List Bool Lia.
From PKGen Require Import PieColumns.
From PK Require Import Persist.Model Persist.DecoratorProofs Persist.ChainProofs Persist.StoreProofs Persist.AttrProofs.
Import ListNotations.
Open Scope Z_scope.

Definition alg_attr_ok (l : list tattr) : Prop := match sel_alg l with Some a => enum_ok (Some a) | None => True end.

Lemma sel_len_no_len : forall l, sel_len (filter (fun t => match ta_val t with TLen _ => false | _ => true end) l) = None.
Proof. induction l as [|[i tv] l IH]; [reflexivity|]. destruct tv; exact IH. Qed.

(* Create, DeriveKey of a key and CreateKeyPair build a key from the template's algorithm and length *)
Lemma pair_secret_inv : forall c fmt mat l s, pair_secret c fmt mat l = Ok s ->
  exists a n, sel_alg l = Some a /\ sel_len l = Some n /\ s = SKey c (mkKB fmt mat (Some a) (Some n) None).
Proof.
  intros c fmt mat l s H. unfold pair_secret in H.
  destruct (sel_alg l) as [a|]; [|discriminate H]. destruct (sel_len l) as [n|]; [|discriminate H].
  destruct (sel_mask l); [|discriminate H]. injection H as <-. exists a, n. repeat split.
Qed.

Lemma made_secret_inv : forall k mat l s, made_secret k mat l = Ok s ->
  match k with
  | KDeriveSecret => s = SSecret SDT_SEED (mkKB KFT_OPAQUE mat None None None)
  | _ => exists a n, sel_alg l = Some a /\ sel_len l = Some n /\ s = SKey CSym (mkKB KFT_RAW mat (Some a) (Some n) None)
  end.
Proof.
  intros k mat l s H. destruct k; simpl in H.
  - apply (pair_secret_inv CSym KFT_RAW). exact H.
  - destruct (sel_alg l) as [a|]; [|discriminate H]. destruct (sel_len l) as [n|]; [|discriminate H].
    destruct (n mod 8 =? 0); [|discriminate H]. injection H as <-. exists a, n. repeat split.
  - destruct (sel_len l) as [n|]; [|discriminate H]. destruct (n mod 8 =? 0); [|discriminate H]. injection H as <-. reflexivity.
Qed.

Lemma template_key_ok : forall c fmt mat l a n, sel_alg l = Some a -> sel_len l = Some n -> enum_ok (Some fmt) -> alg_attr_ok l ->
  let s := SKey c (mkKB fmt mat (Some a) (Some n) None) in enums_ok s /\ wf_secret s /\ len_attr_consistent s l.
Proof.
  intros c fmt mat l a n A N Hf Ha. unfold alg_attr_ok in Ha. rewrite A in Ha.
  split; [exact (conj Hf (conj Ha I))|]. split; [exact I|]. right. exact N.
Qed.

Lemma made_secret_facts : forall k mat l s, made_secret k mat l = Ok s -> alg_attr_ok l ->
  enums_ok s /\ wf_secret s /\ len_attr_consistent s (made_attrs k l).
Proof.
  intros k mat l s H Ha. apply made_secret_inv in H. destruct k.
  - destruct H as (a & n & A & N & ->). apply template_key_ok; try assumption. discriminate.
  - destruct H as (a & n & A & N & ->). apply template_key_ok; try assumption. discriminate.
  - subst s. split; [discriminate|]. split; [repeat split|]. left. apply sel_len_no_len.
Qed.

Lemma pair_secret_facts : forall c fmt mat l s, pair_secret c fmt mat l = Ok s -> enum_ok (Some fmt) -> alg_attr_ok l ->
  enums_ok s /\ wf_secret s /\ len_attr_consistent s l.
Proof. intros c fmt mat l s H Hf Ha. apply pair_secret_inv in H as (a & n & A & N & ->). apply template_key_ok; assumption. Qed.

(* CreateKeyPair: both keys, through the two Register steps it is made of *)
Lemma pair_stored_later : forall v o n fu mu fr mr lc lu lr st st' u1 u2 h v',
  store_ok st -> enum_ok (Some fu) -> enum_ok (Some fr) ->
  alg_attr_ok (resolve lc lu) -> alg_attr_ok (resolve lc lr) ->
  names_untyped (resolve lc lu) -> names_untyped (resolve lc lr) ->
  mask_attr_defined (resolve lc lu) -> mask_attr_defined (resolve lc lr) ->
  srv_make_pair v o n fu mu fr mr lc lu lr st = Ok (st', (u1, u2)) ->
  Forall (not_destroying u1) h -> Forall (not_destroying u2) h ->
  exists su sr,
    pair_secret CPub fu mu (resolve lc lu) = Ok su /\ pair_secret CPriv fr mr (resolve lc lr) = Ok sr /\
    srv_attrs v' (run st' h) u1 = Ok (expected_attrs v' u1 n (state_after u1 su h) su (resolve lc lu)) /\
    srv_attrs v' (run st' h) u2 = Ok (expected_attrs v' u2 n (state_after u2 sr h) sr (resolve lc lr)) /\
    srv_get (run st' h) u1 = Ok su /\ srv_get (run st' h) u2 = Ok sr.
Proof.
  intros v o n fu mu fr mr lc lu lr st st' u1 u2 h v' F Hfu Hfr Hau Har Hnu Hnr Hmu Hmr H N1 N2.
  destruct (make_pair_inv _ _ _ _ _ _ _ _ _ _ _ _ _ _ H) as (su & sr & st1 & P1 & P2 & R1 & R2).
  exists su, sr. split; [exact P1|]. split; [exact P2|].
  destruct (pair_secret_facts _ _ _ _ _ P1 Hfu Hau) as (Eu & Wu & Lu).
  destruct (pair_secret_facts _ _ _ _ _ P2 Hfr Har) as (Er & Wr & Lr).
  pose proof (grows_store_ok _ _ F (register_grows _ _ _ _ _ _ _ _ R1)) as F1.
  (* the private key's registration is the first step of the public key's later history *)
  assert (Run : run st' h = run st1 (HRegister v o n sr (resolve lc lr) :: h)) by (simpl; rewrite R2; reflexivity).
  assert (N1' : Forall (not_destroying u1) (HRegister v o n sr (resolve lc lr) :: h)) by (constructor; [exact I|exact N1]).
  repeat split.
  - rewrite Run. exact (stored_attrs_later _ _ _ _ _ _ _ _ _ v' F Eu Lu Hnu Hmu R1 N1').
  - exact (stored_attrs_later _ _ _ _ _ _ _ _ h v' F1 Er Lr Hnr Hmr R2 N2).
  - rewrite Run. exact (stored_get_later _ _ _ _ _ _ _ _ _ F Wu Eu Lu R1 N1').
  - exact (stored_get_later _ _ _ _ _ _ _ _ h F1 Wr Er Lr R2 N2).
Qed.

(* the resolution rule of KMIP 4.2, attribute by attribute *)
Definition of_attr (a : nat) (l : list tattr) : list tattr := filter (fun t => Nat.eqb (tval_attr (ta_val t)) a) l.

Lemma count_attr_none : forall a l, count_attr a l = O -> of_attr a l = [].
Proof.
  intros a l. induction l as [|t l IH]; simpl; intro H; [reflexivity|].
  unfold of_attr in *. simpl. destruct (Nat.eqb (tval_attr (ta_val t)) a); [discriminate H|]. apply IH. exact H.
Qed.

Lemma of_attr_filter : forall (g : nat -> bool) a l,
  of_attr a (filter (fun t => g (tval_attr (ta_val t))) l) = if g a then of_attr a l else [].
Proof.
  intros g a. unfold of_attr. induction l as [|t l IH]; simpl; [destruct (g a); reflexivity|].
  destruct (Nat.eqb_spec (tval_attr (ta_val t)) a) as [E|N].
  - rewrite E. destruct (g a); simpl in *; [rewrite E, Nat.eqb_refl, IH|]; [reflexivity|exact IH].
  - destruct (g (tval_attr (ta_val t))); simpl; [apply Nat.eqb_neq in N; rewrite N|]; exact IH.
Qed.

Lemma resolve_rule : forall a common spec,
  of_attr a (resolve common spec) = if has_attr a spec then of_attr a spec else of_attr a common.
Proof.
  intros a common spec.
  transitivity (of_attr a spec ++ of_attr a (filter (fun t => negb (has_attr (tval_attr (ta_val t)) spec)) common)); [apply filter_app|].
  rewrite (of_attr_filter (fun x => negb (has_attr x spec))). unfold has_attr.
  destruct (Nat.eqb_spec (count_attr a spec) 0) as [C|_]; simpl; [|apply app_nil_r].
  rewrite (count_attr_none a spec C). reflexivity.
Qed.

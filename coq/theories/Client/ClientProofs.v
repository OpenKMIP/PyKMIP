(* C19 - the two client layers of Client.v.  Whatever ProxyKmipClient returns or raises reports the
   first item (reports, interpret_reports, interpret_spec: start there for a new fact about every
   response); a legal success returns the data spec_return reads off the payload; a legal failure is
   raised with the fields of the response (proxy_call_failure by code path, then failure_carries). *)
From PK Require Import Base.Bytes Client.Client.
From PKGen Require Import Enums.
From Coq Require Import ZArith List Bool Lia ZifyBool String.
Import ListNotations.
Open Scope Z_scope.

(* tie T: the operation codes of the model are those of kmip/core/enums.py (table E_Operation) *)
Definition opname (o : op) : string :=
  match o with
  | OCreate => "CREATE" | OCreateKeyPair => "CREATE_KEY_PAIR" | ORegister => "REGISTER" | OLocate => "LOCATE"
  | OGet => "GET" | OGetAttributes => "GET_ATTRIBUTES" | OGetAttributeList => "GET_ATTRIBUTE_LIST"
  | OActivate => "ACTIVATE" | ORevoke => "REVOKE" | ODestroy => "DESTROY" | OMac => "MAC"
  | ORekey => "REKEY" | ODeriveKey => "DERIVE_KEY" | OCheck => "CHECK" | OEncrypt => "ENCRYPT"
  | ODecrypt => "DECRYPT" | OSignatureVerify => "SIGNATURE_VERIFY" | OSign => "SIGN"
  | ODeleteAttribute => "DELETE_ATTRIBUTE" | OSetAttribute => "SET_ATTRIBUTE" | OModifyAttribute => "MODIFY_ATTRIBUTE"
  | OQuery => "QUERY" | ODiscoverVersions => "DISCOVER_VERSIONS" | ORekeyKeyPair => "REKEY_KEY_PAIR"
  end%string.

Definition in_table (o : op) : bool :=
  existsb (fun p => String.eqb (fst p) (opname o) && (snd p =? opcode o)) E_Operation.

Lemma all_ops_complete o : In o all_ops.
Proof. destruct o; unfold all_ops; auto 25 with datatypes. Qed.

Lemma opcodes_match_enums o : in_table o = true.
Proof.
  apply (proj1 (forallb_forall in_table all_ops)); [vm_compute; reflexivity | apply all_ops_complete].
Qed.

Lemma result_status_success : In ("SUCCESS"%string, SUCCESS) E_ResultStatus.
Proof. vm_compute. tauto. Qed.

Lemma mk_result_inv c it fs r :
  mk_result c it fs = PResult r ->
  pr_status r = ri_status it /\ pr_reason r = ri_reason it /\ pr_msg r = ri_msg it /\
  pr_class r = c /\ fields_of it fs = Some (pr_fields r).
Proof.
  unfold mk_result. destruct (fields_of it fs) eqn:E; [|discriminate].
  intros H. injection H as <-. simpl. auto.
Qed.

Lemma copy_fields_lookup p fs f :
  copy_fields p fs = Some f ->
  forall rn pn, In (rn, pn) fs ->
    (forall rn' pn', In (rn', pn') fs -> fcode rn' = fcode rn -> pn' = pn) ->
    getattr rn f = getattr pn p.
Proof.
  revert f. induction fs as [|[rn0 pn0] fs IH]; intros f H rn pn Hin Hu; [contradiction|].
  simpl in H. destruct (getattr pn0 p) as [v0|] eqn:E0; [|discriminate].
  destruct (copy_fields p fs) as [t|] eqn:Et; [|discriminate].
  injection H as <-. simpl. unfold fname_eqb.
  destruct (fcode rn =? fcode rn0) eqn:Ec.
  - assert (pn0 = pn) by (apply (Hu rn0 pn0); [left; auto | lia]). subst. auto.
  - destruct Hin as [Hin | Hin]; [injection Hin as -> ->; lia|].
    apply IH; auto. intros. apply (Hu rn' pn'); auto. right; auto.
Qed.

Lemma has_attrs_read p fs :
  has_attrs p fs = true -> forall f, In f fs -> getattr f p = Some (dget f p).
Proof.
  unfold has_attrs, dget. rewrite forallb_forall. intros H f Hin. specialize (H f Hin).
  destruct (getattr f p); [reflexivity|discriminate].
Qed.

Lemma not_none_inv x : not_none x = true -> exists v, x = Some v /\ v <> VNone.
Proof. destruct x as [[]|]; simpl; try discriminate; intros _; eexists; split; eauto; discriminate. Qed.

(* what KMIPProxy hands back carries the status, reason and message of the first item *)
Definition copies (it : ritem) (x : pout) : Prop :=
  match x with
  | PResult r => pr_status r = ri_status it /\ pr_reason r = ri_reason it /\ pr_msg r = ri_msg it
  | PDict st rs m _ => st = ri_status it /\ rs = ri_reason it /\ m = ri_msg it
  | PPayload _ => ri_status it = SUCCESS
  | PFail st rs m => st = ri_status it /\ st <> SUCCESS /\ ri_reason it = Some rs /\ ri_msg it = m
  | PExc => True
  end.

Lemma mk_result_copies c it fs : copies it (mk_result c it fs).
Proof. unfold mk_result. destruct (fields_of it fs); simpl; auto. Qed.

Lemma process_item_copies it : copies it (process_item it).
Proof.
  unfold process_item. destruct (ri_op it) as [c|]; [|apply mk_result_copies].
  repeat destruct (c =? _); try apply mk_result_copies.
  - (* Query rebuilds the result object with the same status, reason and message *)
    pose proof (mk_result_copies CQuery it query_fields) as H.
    destruct (mk_result CQuery it query_fields); exact H.
  - exact I.
Qed.

Lemma proxy_process_copies it rest : copies it (proxy_process (it :: rest)).
Proof.
  unfold proxy_process. simpl.
  pose proof (process_item_copies it) as H.
  destruct (process_item it); simpl; auto; destruct (process_all rest); simpl; auto.
Qed.

Lemma proxy_dict_copies o it rest : copies it (proxy_dict o (it :: rest)).
Proof.
  unfold proxy_dict. destruct (ri_payload it) as [p|]; [|simpl; auto].
  destruct (copy_fields p (dict_fields o)) as [d|]; [|exact I].
  destruct o; simpl; auto. destruct (check_norm d); simpl; auto.
Qed.

Lemma proxy_payload_copies o it rest : copies it (proxy_payload o (it :: rest)).
Proof.
  unfold proxy_payload. destruct rest; [|exact I].
  destruct (ri_status it =? SUCCESS) eqn:E; simpl.
  - destruct (ri_op it) as [c|]; [|exact I].
    destruct (c =? opcode o); [|exact I]. destruct (ri_payload it); simpl; auto. lia.
  - destruct (ri_reason it) eqn:R; simpl; auto. repeat split; auto. lia.
Qed.

(* KMIPProxy: whatever it hands back carries exactly the first item's status, reason and message *)
Theorem proxy_copies_exactly o it rest : copies it (proxy_call o (Decoded (it :: rest))).
Proof.
  unfold proxy_call. destruct (style_of o).
  - apply mk_result_copies.
  - apply proxy_process_copies.
  - apply proxy_dict_copies.
  - apply proxy_payload_copies.
Qed.

Lemma proxy_call_nil o : proxy_call o (Decoded []) = PExc.
Proof. unfold proxy_call. destruct (style_of o); reflexivity. Qed.

(* what an outcome may say about the first item of the response: a value only on Success, an
   operation failure only with that item's status, reason and message *)
Definition reports (it : ritem) (x : outcome) : Prop :=
  match x with
  | Return _ => ri_status it = SUCCESS
  | Raise _ st rs m => ri_status it = st /\ st <> SUCCESS /\ ri_reason it = Some rs /\ ri_msg it = m
  | RaiseOther => True
  end.

Definition no_raise (x : outcome) : Prop := match x with Raise _ _ _ _ => False | _ => True end.

Lemma reports_success it x : ri_status it = SUCCESS -> no_raise x -> reports it x.
Proof. destruct x; simpl; tauto. Qed.

(* the status switch pie_of_result and pie_of_dict share *)
Lemma reports_by_status it x :
  no_raise x ->
  reports it (if ri_status it =? SUCCESS then x
              else match ri_reason it with
                   | Some rs => Raise FPie (ri_status it) rs (ri_msg it)
                   | None => RaiseOther
                   end).
Proof.
  intros Hx. destruct (ri_status it =? SUCCESS) eqn:E.
  - apply reports_success; [lia|exact Hx].
  - destruct (ri_reason it) eqn:R; simpl; auto. repeat split; auto. lia.
Qed.

(* the extraction functions have no leaf that raises an operation failure: case on every read *)
Lemma pie_success_result_no_raise o f : no_raise (pie_success_result o f).
Proof.
  unfold pie_success_result, opt2. destruct o; repeat destruct (getattr _ f) as [[]|]; try exact I.
  destruct (all_bytes _); exact I.
Qed.

Lemma pie_of_payload_no_raise o p : no_raise (pie_of_payload o p).
Proof. unfold pie_of_payload, opt2. destruct o; repeat destruct (getattr _ p); exact I. Qed.

Lemma interpret_reports o it rest : reports it (interpret o (Decoded (it :: rest))).
Proof.
  unfold interpret. destruct (is_pie o); [|exact I]. cbn [negb].
  pose proof (proxy_copies_exactly o it rest) as C.
  destruct (proxy_call o (Decoded (it :: rest))) as [[c st rs m f]|st rs m d|p|st rs m|]; simpl in C.
  - destruct C as (-> & -> & ->). apply reports_by_status, pie_success_result_no_raise.
  - destruct C as (-> & -> & ->). apply reports_by_status. exact I.
  - apply reports_success; [exact C|apply pie_of_payload_no_raise].
  - destruct C as (-> & C). exact (conj eq_refl C).
  - exact I.
Qed.

Theorem undecodable_raises o : interpret o Undecodable = RaiseOther.
Proof. unfold interpret. destruct (is_pie o); reflexivity. Qed.

Theorem empty_response_raises o : interpret o (Decoded []) = RaiseOther.
Proof. unfold interpret. rewrite proxy_call_nil. destruct (is_pie o); reflexivity. Qed.

(* for EVERY response, decoded or not: some other exception, or an outcome that reports the first item *)
Lemma interpret_spec o r :
  interpret o r = RaiseOther \/ exists it rest, r = Decoded (it :: rest) /\ reports it (interpret o r).
Proof.
  destruct r as [|[|it rest]].
  - left. apply undecodable_raises.
  - left. apply empty_response_raises.
  - right. eauto using interpret_reports.
Qed.

(* it never reports success for a failed operation: a value comes back only when the first
   (the only legal) item says Success *)
Theorem returns_only_on_success o r v :
  interpret o r = Return v ->
  exists it rest, r = Decoded (it :: rest) /\ ri_status it = SUCCESS.
Proof.
  intros H. destruct (interpret_spec o r) as [E | (it & rest & -> & R)]; rewrite H in *; [discriminate | eauto].
Qed.

Corollary never_success_on_failure o it rest v :
  ri_status it <> SUCCESS -> interpret o (Decoded (it :: rest)) <> Return v.
Proof.
  intros Hs H. pose proof (interpret_reports o it rest) as R. rewrite H in R. exact (Hs R).
Qed.

(* whenever an operation-failure error is raised it carries the first item's status, reason
   and message verbatim *)
Theorem raise_carries_exact o r c st rs m :
  interpret o r = Raise c st rs m ->
  exists it rest, r = Decoded (it :: rest) /\
    ri_status it = st /\ st <> SUCCESS /\ ri_reason it = Some rs /\ ri_msg it = m.
Proof.
  intros H. destruct (interpret_spec o r) as [E | (it & rest & -> & R)]; rewrite H in *; [discriminate | eauto].
Qed.

(* the data of a successful answer reaches the caller: through result objects, dictionaries
   and payloads alike the method returns exactly what the specification reads off the payload *)
Theorem success_returns_payload_data o it p :
  is_pie o = true -> legal_success o it p ->
  exists v, spec_return o p = Some v /\ interpret o (Decoded [it]) = Return v.
Proof.
  intros Hp (Hs & Ho & Hpl & Hw).
  destruct it as [iop ist irs imsg ipl]. simpl in *. subst.
  apply andb_prop in Hw as [Ha Hx]. revert Hx. pose proof (has_attrs_read p _ Ha) as R. clear Ha.
  (* per operation: evaluate with the reads of the payload held back, put in their values
     (dget f p, by R), evaluate the rest *)
  destruct o; try discriminate Hp; cbn [payload_attrs] in R;
    cbv -[getattr dget all_bytes sort_bytes mask_members];
    rewrite !R by (simpl; tauto);
    cbv -[dget all_bytes sort_bytes mask_members]; eauto.
  (* left: the operations whose payload has to satisfy more than having its attributes *)
  - destruct (dget PSecret p); try discriminate; eauto.
  - destruct (dget PAttributeNames p) as [| | |l]; try discriminate. destruct (all_bytes l); try discriminate. eauto.
  - destruct (dget PUniqueIdentifier p), (dget PMacData p); try discriminate; eauto.
  - destruct (dget PCryptoUsageMask p); try discriminate; eauto.
Qed.

(* what KMIPProxy hands back for a legal failure, by code path: a result object, a dictionary or
   an OperationFailure, each with the status, reason and message of the response *)
Lemma proxy_call_failure o it rs :
  legal_failure o it rs ->
  match style_of o with
  | SDict => proxy_call o (Decoded [it]) = PDict (ri_status it) (Some rs) (ri_msg it) []
  | SPayload => proxy_call o (Decoded [it]) = PFail (ri_status it) rs (ri_msg it)
  | _ => exists c f, proxy_call o (Decoded [it]) =
           PResult {| pr_class := c; pr_status := ri_status it; pr_reason := Some rs;
                      pr_msg := ri_msg it; pr_fields := f |}
  end.
Proof.
  intros (Hs & Hr & Hpl & Hop). unfold proxy_call. destruct (style_of o) eqn:S.
  - unfold proxy_direct, mk_result, fields_of. rewrite Hpl, Hr. eauto.
  - (* dispatch on the echoed operation: absent, or one of the six this path serves *)
    unfold proxy_process, process_all, process_item. destruct Hop as [-> | ->].
    + destruct o; try discriminate S; simpl; unfold mk_result, fields_of; rewrite Hpl, Hr; eauto.
    + unfold mk_result, fields_of. rewrite Hpl, Hr. eauto.
  - unfold proxy_dict. rewrite Hpl, Hr. reflexivity.
  - unfold proxy_payload. replace (ri_status it =? SUCCESS) with false by lia. rewrite Hr. reflexivity.
Qed.

(* which exception class a legal failure is raised as *)
Definition failure_class (o : op) : fcls := match style_of o with SPayload => FCore | _ => FPie end.

(* every legal failure - message or not, operation echoed or not - is raised as an operation
   failure carrying exactly the status, reason and message of the response *)
Theorem failure_carries o it rs :
  is_pie o = true -> legal_failure o it rs ->
  interpret o (Decoded [it]) = Raise (failure_class o) (ri_status it) rs (ri_msg it).
Proof.
  intros Hp H. pose proof (proxy_call_failure o it rs H) as P. destruct H as (Hs & _).
  assert (Hst : (ri_status it =? SUCCESS) = false) by lia.
  unfold interpret, failure_class. rewrite Hp.
  destruct (style_of o); try destruct P as (c & f & P); rewrite P; simpl;
    unfold pie_of_result, pie_of_dict; simpl; rewrite ?Hst; reflexivity.
Qed.

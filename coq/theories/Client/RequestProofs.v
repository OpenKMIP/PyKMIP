(* C19 - the request envelope written by the client is read back by the server-side reader, and is
   one TTLV message.  tag_named / tags_match_enums_statement (tie T: the tag numbers of Request.v
   against gen/Enums.v) are defined here and proved in props/C19.v.  Two notions carry the round
   trip: starts tag bs (all that the reader's probes for optional fields look at) and
   reads_back rd bs a of Base/BytesProofs.v (a written piece is read back wherever it stands). *)
From PK Require Import Base.Prim Base.BytesProofs Base.PrimProofs Client.Request Client.Framing Client.FramingProofs.
From PKGen Require Import Enums.
From Coq Require Import ZArith List Bool Lia ZifyBool String.
Import ListNotations.
Open Scope Z_scope.

(* tie T: the tag numbers are those of kmip/core/enums.py *)
Definition tag_named (n : string) (t : Z) : bool :=
  existsb (fun p => String.eqb (fst p) n && (snd p =? t)) E_Tags.
Definition tags_match_enums_statement : Prop :=
  tag_named "REQUEST_MESSAGE" T_REQUEST_MESSAGE && tag_named "REQUEST_HEADER" T_REQUEST_HEADER &&
  tag_named "PROTOCOL_VERSION" T_PROTOCOL_VERSION && tag_named "PROTOCOL_VERSION_MAJOR" T_MAJOR &&
  tag_named "PROTOCOL_VERSION_MINOR" T_MINOR && tag_named "BATCH_COUNT" T_BATCH_COUNT &&
  tag_named "BATCH_ITEM" T_BATCH_ITEM && tag_named "OPERATION" T_OPERATION &&
  tag_named "REQUEST_PAYLOAD" T_REQUEST_PAYLOAD && tag_named "MESSAGE_EXTENSION" T_MESSAGE_EXTENSION &&
  forallb (fun p => tag_named (fst p) (snd p))
    (combine ["MAXIMUM_RESPONSE_SIZE"; "ASYNCHRONOUS_INDICATOR"; "AUTHENTICATION"; "BATCH_ERROR_CONTINUATION_OPTION";
              "BATCH_ORDER_OPTION"; "TIME_STAMP"]%string HEADER_OPTIONALS) &&
  forallb (fun p => tag_named (fst p) (snd p)) (combine ["EPHEMERAL"; "UNIQUE_BATCH_ITEM_ID"]%string ITEM_OPTIONALS) = true.

Lemma cat2_some a b bs : cat2 a b = Some bs -> exists x y, a = Some x /\ b = Some y /\ bs = x ++ y.
Proof. destruct a, b; simpl; try discriminate. intros H; injection H as <-. eauto. Qed.

Lemma struct_some tag b bs :
  struct_ tag b = Some bs -> exists body h, b = Some body /\ hdr tag STRUCT_CODE (zlen body) = Some h /\ bs = h ++ body.
Proof.
  destruct b as [body|]; simpl; [|discriminate]. intros H.
  apply with_hdr_some in H as (h & Hh & ->). eauto.
Qed.

(* the optional-field probes only look at the tag of the next item: bs begins with the header of tag *)
Definition starts (tag : Z) (bs : bytes) : Prop :=
  exists ty len h body, hdr tag ty len = Some h /\ bs = h ++ body.

Lemma hdr_starts tag ty len h body : hdr tag ty len = Some h -> starts tag (h ++ body).
Proof. unfold starts. eauto 6. Qed.

Lemma enc_prim_starts_hdr tag p bs : enc_prim tag p = Some bs -> starts tag bs.
Proof.
  rewrite enc_prim_eq. destruct (enc_ok p); [|discriminate]. intros H.
  apply with_hdr_some in H as (h & Hh & ->). exact (hdr_starts _ _ _ _ _ Hh).
Qed.

Lemma is_tag_next_starts t tag bs : tag_ok tag = true -> starts tag bs -> is_tag_next t bs = (tag =? t).
Proof.
  intros Ht (ty & len & h & body & Hh & ->). apply hdr_some in Hh as [-> _].
  rewrite <- List.app_assoc. apply is_tag_next_tag, Ht.
Qed.

Lemma absent_starts tags tag bs :
  tag_ok tag = true -> starts tag bs -> absent tags bs = forallb (fun t => negb (tag =? t)) tags.
Proof.
  intros Ht Hs. unfold absent. induction tags as [|t tags IH]; simpl; [reflexivity|].
  rewrite IH, (is_tag_next_starts t tag) by assumption. reflexivity.
Qed.

Lemma struct_reads_back tag b bs :
  tag_ok tag = true -> struct_ tag b = Some bs ->
  exists body, b = Some body /\ reads_back (dec_struct tag) bs body /\ starts tag bs.
Proof.
  intros Ht H. destruct b as [body|]; [|discriminate]. exists body. repeat split.
  - exact (dec_struct_with_hdr tag body bs Ht H).
  - apply with_hdr_some in H as (h & Hh & ->). exact (hdr_starts _ _ _ _ _ Hh).
Qed.

(* a primitive the encoder accepted is well-formed, so the Base round trip applies *)
Lemma prim_reads_back mem t tag p bs :
  ptype_of p = t -> tag_ok tag = true ->
  match p with VBytes b => bytes_ok b = true | _ => True end ->
  match p with VEnum v => mem v = true | _ => True end ->
  enc_prim tag p = Some bs ->
  reads_back (dec_prim mem t tag) bs p.
Proof.
  intros <- Ht Hb Hm He rest. apply dec_enc_prim; [exact Ht| |exact He].
  apply (enc_some_iff_wf mem tag p Hb Hm). eauto.
Qed.

(* every request the client writes - any version, any operation the server knows, any payload body -
   is read back by the server-side reader as the same version, operation and payload *)
Theorem request_envelope_roundtrip opmem v opc payload bs :
  opmem opc = true ->
  enc_request v opc payload = Some bs ->
  dec_request opmem bs = Some (version_pair v, opc, payload).
Proof.
  intros Hm He. unfold enc_request in He. cbv zeta in He.
  (* the writer, piece by piece, with how each structure reads back *)
  apply struct_some in He as (mbody & mh & Hmb & Hmh & ->).
  apply cat2_some in Hmb as (hs & bis & Hhs & Hbis & ->).
  apply (struct_reads_back T_REQUEST_HEADER _ _ eq_refl) in Hhs as (hbody & Hhb & Dh & _).
  apply cat2_some in Hhb as (pvs & bc & Hpvs & Hbc & ->).
  apply (struct_reads_back T_PROTOCOL_VERSION _ _ eq_refl) in Hpvs as (pvbody & Hpvb & Dpv & _).
  apply cat2_some in Hpvb as (mj & mn & Hmj & Hmn & ->).
  apply (struct_reads_back T_BATCH_ITEM _ _ eq_refl) in Hbis as (ibody & Hib & Di & _).
  apply cat2_some in Hib as (ops & pls & Hops & Hpls & ->).
  apply (struct_reads_back T_REQUEST_PAYLOAD _ _ eq_refl) in Hpls as (pl & [= <-] & Dpl & Spl).
  (* the reader, step by step; the last field of a structure is read with nothing left *)
  unfold dec_request.
  rewrite (dec_hdr_hdr T_REQUEST_MESSAGE STRUCT_CODE _ mh _ eq_refl Hmh).
  rewrite Dh, Dpv.
  rewrite (prim_reads_back anyint PInt T_MAJOR (VInt _) mj eq_refl eq_refl I I Hmj).
  rewrite (read_to_end _ _ _ (prim_reads_back anyint PInt T_MINOR (VInt _) mn eq_refl eq_refl I I Hmn)). cbn [is_nil negb].
  rewrite (absent_starts _ T_BATCH_COUNT bc eq_refl (enc_prim_starts_hdr _ _ _ Hbc)). cbn [negb].
  rewrite (read_to_end _ _ _ (prim_reads_back anyint PInt T_BATCH_COUNT (VInt 1) bc eq_refl eq_refl I I Hbc)).
  cbn [is_nil negb Z.eqb Pos.eqb].
  rewrite (read_to_end _ _ _ Di).
  rewrite (prim_reads_back opmem PEnum T_OPERATION (VEnum opc) ops eq_refl eq_refl I Hm Hops).
  rewrite (absent_starts _ T_REQUEST_PAYLOAD _ eq_refl Spl). cbn [negb].
  rewrite (read_to_end _ _ _ Dpl).
  cbn [is_nil negb]. destruct (version_pair v). reflexivity.
Qed.

(* the emitted request is one TTLV message: header + exactly the announced number of bytes,
   so the server's own framing (the same length-prefixed loop) delivers it whole *)
Theorem request_is_frame v opc payload bs : enc_request v opc payload = Some bs -> is_frame bs.
Proof.
  intros He. unfold enc_request in He. cbv zeta in He.
  apply struct_some in He as (mbody & mh & _ & Hmh & ->).
  exists mh, mbody. apply hdr_some in Hmh as [-> Hl]. split; [reflexivity|split].
  - rewrite !zlen_app, !zlen_be_enc. reflexivity.
  - change (be_dec (be_enc 4 (zlen mbody)) = zlen mbody). apply be_dec_enc. rewrite p4. exact Hl.
Qed.

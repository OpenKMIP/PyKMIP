(* C19 - the client's framing delivers each response intact however the transport splits it,
   and reports an error when the stream ends early.  recv_all_spec (the one induction over chunk
   lists) says what _recv_all takes off the stream; the read_stream_* lemmas compute the specification
   on a stream that holds a whole message, a cut one, or less than a header; read_spec joins the two,
   and the theorems about read follow from it.  Section EndToEnd carries them over to client_call (read,
   decode, interpret) for any response decoder.  The server-side reader has its own file,
   Session/FramingProofs.v. *)
From PK Require Import Base.Bytes Base.BytesProofs Client.Client Client.Framing Client.EndToEnd.
From Coq Require Import ZArith List Bool Lia ZifyBool.
Import ListNotations.
Open Scope Z_scope.

Definition chunks_ok (cs : list bytes) : Prop := Forall (fun c => c <> []) cs.

Lemma zlen_cons {A} (x : A) l : zlen (x :: l) = 1 + zlen l.
Proof. unfold zlen. simpl length. lia. Qed.

Lemma firstn_firstn_le {A} (n m : nat) (l : list A) : (n <= m)%nat -> firstn n (firstn m l) = firstn n l.
Proof. intros H. rewrite firstn_firstn. f_equal. lia. Qed.

(* _recv_all takes the first max(0, need) bytes off the stream, whatever the chunking, and comes
   up short exactly when the stream has fewer.  Stated as a splitting of the stream, so that no
   firstn/skipn arithmetic is needed until the result is compared with read_stream. *)
Lemma recv_all_spec cs : forall need acc,
  chunks_ok cs ->
  match recv_all need acc cs with
  | ROk data rest =>
      exists d, data = acc ++ d /\ concat cs = d ++ concat rest /\ zlen d = Z.max 0 need /\ chunks_ok rest
  | RShort r => r = zlen acc + zlen (concat cs) /\ zlen (concat cs) < need
  end.
Proof.
  induction cs as [|c cs IH]; intros need acc Hok; simpl; destruct (need <=? 0) eqn:E.
  1, 3: exists []; rewrite app_nil_r; repeat split; auto; unfold zlen; simpl length; lia.
  - unfold zlen. simpl length. lia.
  - apply Forall_cons_iff in Hok as [Hc Hcs].
    (* from here on all that matters about the chunk is that it is not empty *)
    destruct c as [|x c']; [congruence|]. set (c := x :: c') in *. clearbody c.
    destruct (zlen c <=? need) eqn:E2.
    + specialize (IH (need - zlen c) (acc ++ c) Hcs). rewrite zlen_app in *.
      destruct (recv_all (need - zlen c) (acc ++ c) cs) as [data rest|r].
      * destruct IH as (d & -> & -> & Ld & Hr). exists (c ++ d).
        rewrite !app_assoc, zlen_app. repeat split; auto. lia.
      * lia.
    + exists (firstn (Z.to_nat need) c). cbn [concat]. rewrite app_assoc, firstn_skipn.
      unfold zlen in *. rewrite firstn_length. repeat split; [lia|].
      constructor; [apply skipn_nonempty; lia|exact Hcs].
Qed.

(* a TTLV message: 8 header bytes whose last four give the length of what follows *)
Definition is_frame (f : bytes) : Prop :=
  exists hdr body, f = hdr ++ body /\ zlen hdr = 8 /\ be_dec (skipn 4 hdr) = zlen body.

(* read_stream once eight header bytes are there *)
Lemma read_stream_hdr hdr b :
  zlen hdr = 8 ->
  read_stream (hdr ++ b) =
    let size := be_dec (skipn 4 hdr) in
    if zlen b <? size then SShort size (zlen b)
    else SOk (firstn (Z.to_nat (8 + size)) (hdr ++ b)) (skipn (Z.to_nat (8 + size)) (hdr ++ b)).
Proof.
  intros Lh. unfold read_stream, HEADER_SIZE. rewrite zlen_app, Lh. pose proof (zlen_nonneg b).
  destruct (8 + zlen b =? 0) eqn:E0; [lia|]. destruct (8 + zlen b <? 8) eqn:E8; [lia|].
  rewrite firstn_app_exact by (unfold zlen in Lh; lia).
  replace (8 + zlen b - 8) with (zlen b) by lia. reflexivity.
Qed.

Lemma read_stream_frame f more : is_frame f -> read_stream (f ++ more) = SOk f more.
Proof.
  intros (hdr & body & -> & Lh & Lb). rewrite <- app_assoc, read_stream_hdr, Lb by exact Lh. cbv zeta.
  rewrite zlen_app. pose proof (zlen_nonneg more). destruct (zlen body + zlen more <? zlen body) eqn:E; [lia|].
  assert (L : Z.to_nat (8 + zlen body) = length (hdr ++ body)) by (rewrite app_length; unfold zlen in *; lia).
  rewrite app_assoc, firstn_app_exact, skipn_app_exact by exact L. reflexivity.
Qed.

Lemma read_stream_short hdr b :
  zlen hdr = 8 -> zlen b < be_dec (skipn 4 hdr) ->
  read_stream (hdr ++ b) = SShort (be_dec (skipn 4 hdr)) (zlen b).
Proof.
  intros Lh Hb. rewrite read_stream_hdr by exact Lh. cbv zeta.
  destruct (zlen b <? be_dec (skipn 4 hdr)) eqn:E; [reflexivity|lia].
Qed.

Lemma read_stream_truncated f k :
  is_frame f -> (k < length f)%nat ->
  read_stream (firstn k f) = SEof \/ exists e r, read_stream (firstn k f) = SShort e r.
Proof.
  intros (hdr & body & -> & Lh & Lb) Hk. rewrite app_length in Hk.
  assert (Hl : length hdr = 8%nat) by (unfold zlen in Lh; lia).
  destruct (Nat.le_gt_cases 8 k) as [H8|H8].
  - right. rewrite firstn_app, firstn_all2 by lia. rewrite read_stream_short; eauto.
    unfold zlen in *. rewrite firstn_length. lia.
  - unfold read_stream, HEADER_SIZE.
    assert (Lz : zlen (firstn k (hdr ++ body)) = Z.of_nat k).
    { unfold zlen. rewrite firstn_length, app_length. lia. }
    rewrite Lz. destruct (Z.of_nat k =? 0); [left; reflexivity|].
    destruct (Z.of_nat k <? 8) eqn:E8; [right; eauto|lia].
Qed.

(* KMIPProtocol.read depends on the stream only, not on how the transport split it *)
Theorem read_spec cs :
  chunks_ok cs -> bytes_ok (concat cs) = true -> flatten (read cs) = read_stream (concat cs).
Proof.
  intros Hok Hb. unfold read, HEADER_SIZE.
  pose proof (recv_all_spec cs 8 [] Hok) as H. destruct (recv_all 8 [] cs) as [hdr r1|r].
  - destruct H as (d & -> & E & Ld & Hr1). simpl app. cbv zeta. rewrite E in *.
    pose proof (recv_all_spec r1 (be_dec (skipn 4 d)) [] Hr1) as H.
    destruct (recv_all (be_dec (skipn 4 d)) [] r1) as [body r2|r].
    + destruct H as (d' & -> & -> & Ld' & _). simpl. rewrite app_assoc. symmetry. apply read_stream_frame.
      exists d, d'. repeat split; [lia|].
      (* the length field is not negative because it is decoded from bytes *)
      apply bytes_ok_app in Hb as [Hd _]. apply (bytes_ok_firstn_skipn 4) in Hd as [_ Hd].
      pose proof (be_dec_bound _ Hd). lia.
    + destruct H as (-> & Hlt). simpl. symmetry. apply read_stream_short; lia.
  - destruct H as (-> & Hlt). simpl. unfold read_stream, HEADER_SIZE.
    destruct (zlen (concat cs) =? 0); [reflexivity|].
    destruct (zlen (concat cs) <? 8) eqn:E8; [reflexivity|lia].
Qed.

(* after a delivered message the transport is again a well-formed chunk list: the next read starts cleanly *)
Theorem read_leaves_transport_ok cs f rest : chunks_ok cs -> read cs = FOk f rest -> chunks_ok rest.
Proof.
  intros Hok. unfold read.
  pose proof (recv_all_spec cs HEADER_SIZE [] Hok) as H.
  destruct (recv_all HEADER_SIZE [] cs) as [hdr r1|r]; [|destruct (r =? 0); discriminate].
  destruct H as (_ & _ & _ & _ & Hr1). cbv zeta.
  pose proof (recv_all_spec r1 (be_dec (skipn 4 hdr)) [] Hr1) as H.
  destruct (recv_all (be_dec (skipn 4 hdr)) [] r1) as [body r2|r]; [|discriminate].
  destruct H as (_ & _ & _ & _ & Hr2). intros [= _ <-]. exact Hr2.
Qed.

(* two transports delivering the same bytes, however split, give the same result *)
Theorem client_framing cs1 cs2 :
  chunks_ok cs1 -> chunks_ok cs2 -> concat cs1 = concat cs2 -> bytes_ok (concat cs1) = true ->
  flatten (read cs1) = flatten (read cs2).
Proof.
  intros H1 H2 E B. rewrite !read_spec; auto; rewrite <- ?E; auto.
Qed.

(* each response is delivered intact, whatever the chunking, and the bytes after it stay queued *)
Theorem frame_delivered_intact cs f more :
  chunks_ok cs -> bytes_ok (f ++ more) = true -> is_frame f -> concat cs = f ++ more ->
  exists rest, read cs = FOk f rest /\ concat rest = more.
Proof.
  intros Hok Hb Hf E.
  pose proof (read_spec cs Hok) as R. rewrite E in R. specialize (R Hb).
  rewrite read_stream_frame in R by auto.
  destruct (read cs) as [f' rest| |]; simpl in R; try discriminate.
  injection R as -> <-. eauto.
Qed.

(* the stream ends before the response is complete: an error, never a message *)
Theorem early_end_raises cs f k :
  chunks_ok cs -> bytes_ok f = true -> is_frame f -> (k < length f)%nat -> concat cs = firstn k f ->
  read cs = FEof \/ exists e r, read cs = FShort e r.
Proof.
  intros Hok Hb Hf Hk E.
  pose proof (read_spec cs Hok) as R. rewrite E in R.
  apply (bytes_ok_firstn_skipn k) in Hb as [Hb _]. specialize (R Hb).
  destruct (read_stream_truncated f k Hf Hk) as [S | (e & r & S)]; rewrite S in R;
    destruct (read cs); simpl in R; try discriminate; eauto.
Qed.

Section EndToEnd.
  (* ResponseMessage.read under the client's KMIP version (C01's subject; arbitrary here) *)
  Variable decode : bytes -> resp.

  Theorem client_call_chunk_independent o cs1 cs2 :
    chunks_ok cs1 -> chunks_ok cs2 -> concat cs1 = concat cs2 -> bytes_ok (concat cs1) = true ->
    client_call decode o cs1 = client_call decode o cs2.
  Proof.
    intros H1 H2 E B. pose proof (client_framing cs1 cs2 H1 H2 E B) as F.
    unfold client_call. destruct (read cs1), (read cs2); simpl in F; try discriminate; auto.
    injection F as -> _. reflexivity.
  Qed.

  Theorem client_call_complete o cs f more :
    chunks_ok cs -> bytes_ok (f ++ more) = true -> is_frame f -> concat cs = f ++ more ->
    client_call decode o cs = interpret o (decode f).
  Proof.
    intros H1 B F E. destruct (frame_delivered_intact cs f more H1 B F E) as (rest & R & _).
    unfold client_call. rewrite R. reflexivity.
  Qed.

  Theorem client_call_truncated_raises o cs f k :
    chunks_ok cs -> bytes_ok f = true -> is_frame f -> (k < length f)%nat -> concat cs = firstn k f ->
    client_call decode o cs = RaiseOther.
  Proof.
    intros H1 B F K E. unfold client_call.
    destruct (early_end_raises cs f k H1 B F K E) as [R | (e & r & R)]; rewrite R; reflexivity.
  Qed.
End EndToEnd.

(* The primitive encoders of the code model are byte-identical to the
   specification model (WfSpec.v) and produce well-formed TTLV.  to_spec, the map from the code
   model's values to the specification's, is defined here. *)
From PK Require Import Base.Bytes Base.BytesProofs Base.Prim Base.PrimProofs Base.WfSpec.
From Coq Require Import ZifyBool.
Open Scope Z_scope.

Lemma spec_be_be_enc n v : spec_be n v = be_enc n v.
Proof.
  induction n as [|n IH]; [reflexivity|].
  rewrite be_enc_cons. cbn [spec_be]. rewrite IH. reflexivity.
Qed.

Lemma spec_twos_unsigned w v : 0 < w -> - (pow256 w / 2) <= v < pow256 w / 2 ->
  spec_twos (Z.to_nat w) v = be_enc (Z.to_nat w) (to_unsigned w v).
Proof.
  intros Hw Hv. unfold spec_twos. rewrite spec_be_be_enc, Z2Nat.id, (to_unsigned_cases w v Hw Hv) by lia.
  reflexivity.
Qed.

Lemma hdr_spec tag ty len h : hdr tag ty len = Some h -> h = spec_be 3 tag ++ [ty] ++ spec_be 4 len /\ 0 <= len < TWO32.
Proof. intros H. apply hdr_some in H as [-> Hl]. rewrite !spec_be_be_enc. auto. Qed.

Lemma spec_pad_zpad n : spec_pad n = zpad n.
Proof. reflexivity. Qed.

(* header, value and padding of the code model are the three parts of the specification's item *)
Lemma enc_prim_ttlv tag p bs :
  enc_prim tag p = Some bs -> enc_ok p = true /\ bs = spec_ttlv tag (type_code (ptype_of p)) (val_bytes p).
Proof.
  rewrite enc_prim_eq. destruct (enc_ok p); [|discriminate]. intros H.
  apply with_hdr_some in H as (h & Hh & ->). apply hdr_spec in Hh as [-> _].
  rewrite <- val_bytes_len. unfold spec_ttlv. rewrite <- !app_assoc. auto.
Qed.

Lemma big_words_spec v : spec_big_width v (big_words v).
Proof.
  split; [apply big_words_pos|]. split; [apply big_words_upper|].
  destruct (Z.eq_dec (big_words v) 1) as [E|E]; [left; exact E|right].
  (* a second word is only added for a magnitude of at least 64 bits *)
  pose proof (big_words_pos v). pose proof (big_words_bitlen v).
  pose proof (bitlen_lower (Z.abs v) ltac:(lia) ltac:(lia)).
  pose proof (Z.pow_le_mono_r 2 (64 * (big_words v - 1) - 1) (bitlen (Z.abs v) - 1) ltac:(lia) ltac:(lia)). lia.
Qed.

Definition to_spec (p : pval) : spec_val :=
  match p with
  | VInt v => SInt v | VLong v => SLong v | VBig v => SBig v | VEnum v => SEnum v | VBool b => SBool b
  | VText cs => SText cs | VBytes bs => SBytes bs | VDate v => SDate v | VInterval v => SInterval v
  end.

Theorem enc_prim_spec tag p bs :
  enc_prim tag p = Some bs -> spec_enc_rel tag (to_spec p) bs.
Proof.
  intros H. apply enc_prim_ttlv in H as [Hok ->].
  destruct p as [v|v|v|v|b|cs|bs0|v|v]; cbn [enc_ok ptype_of type_code val_bytes to_spec spec_enc_rel spec_enc] in *.
  - rewrite (spec_twos_unsigned 4) by (rewrite ?h4; lia). reflexivity.
  - rewrite (spec_twos_unsigned 8) by (rewrite ?h8; lia). reflexivity.
  - exists (big_words v). split; [apply big_words_spec|].
    pose proof (big_words_pos v). rewrite spec_twos_unsigned by (apply big_words_range || lia). reflexivity.
  - rewrite spec_be_be_enc. reflexivity.
  - rewrite spec_be_be_enc. reflexivity.
  - reflexivity.
  - reflexivity.
  - rewrite (spec_twos_unsigned 8) by (rewrite ?h8; lia). reflexivity.
  - rewrite spec_be_be_enc. reflexivity.
Qed.

Lemma bytes_ok_Forall bs : bytes_ok bs = true -> Forall is_byte bs.
Proof.
  unfold bytes_ok. intros H. apply Forall_forall. intros x Hx.
  rewrite forallb_forall in H. specialize (H x Hx). unfold byte_ok, is_byte in *. lia.
Qed.

Lemma fixed_len_val p : fixed_len_ok (type_code (ptype_of p)) (val_len p).
Proof.
  destruct p as [v|v|v|v|b|cs|bs0|v|v]; cbn [ptype_of type_code fixed_len_ok val_len];
    try reflexivity; try apply zlen_nonneg.
  pose proof (big_words_pos v). split; [lia|]. rewrite Z.mul_comm. apply Z.mod_mul. lia.
Qed.

Theorem enc_prim_wf mem tag p bs :
  tag_ok tag = true -> wf_prim mem p = true -> enc_prim tag p = Some bs -> wf_item bs.
Proof.
  intros Ht Hwf H. apply enc_prim_ttlv in H as [_ ->].
  pose proof (val_bytes_ok mem p Hwf) as Hb. apply wf_prim_iff in Hwf as (_ & Hlen & _).
  pose proof (val_bytes_len p) as Hl. unfold zlen in Hl.
  apply wf_primitive; rewrite ?Hl.
  - unfold tag_ok in Ht. change (256 ^ 3) with 16777216. lia.
  - apply fixed_len_val.
  - apply bytes_ok_Forall, Hb.
  - exact Hlen.
  - destruct p; try discriminate. intros _. destruct b; [right|left]; reflexivity.
Qed.

(* Lemmas about Bytes.v: big-endian numbers, two's complement, take_exact, padding.  reads_back is what the round
   trips of every layer are stated with: a written piece is read back wherever it stands in a buffer. *)
From PK Require Import Base.Bytes.
From Coq Require Import ZifyBool.
Open Scope Z_scope.

Lemma zlen_app {A} (a b : list A) : zlen (a ++ b) = zlen a + zlen b.
Proof. unfold zlen. rewrite app_length. lia. Qed.

Lemma zlen_nonneg {A} (l : list A) : 0 <= zlen l.
Proof. unfold zlen. lia. Qed.

Lemma firstn_app_exact {A} n (a b : list A) : n = length a -> firstn n (a ++ b) = a.
Proof. intros ->. rewrite firstn_app, Nat.sub_diag, firstn_all. apply app_nil_r. Qed.

Lemma skipn_app_exact {A} n (a b : list A) : n = length a -> skipn n (a ++ b) = b.
Proof. intros ->. rewrite skipn_app, Nat.sub_diag, skipn_all. reflexivity. Qed.

Lemma skipn_nonempty {A} n (l : list A) : (n < length l)%nat -> skipn n l <> [].
Proof. intros H K. apply (f_equal (@length A)) in K. rewrite skipn_length in K. cbn in K. lia. Qed.

(* bs is read back as a wherever it stands in a buffer; at the end of a buffer nothing is left *)
Definition reads_back {A} (rd : bytes -> option (A * bytes)) (bs : bytes) (a : A) : Prop :=
  forall rest, rd (bs ++ rest) = Some (a, rest).

Lemma read_to_end {A} (rd : bytes -> option (A * bytes)) bs a : reads_back rd bs a -> rd bs = Some (a, []).
Proof. intros H. rewrite <- (app_nil_r bs) at 1. apply H. Qed.

Lemma bytes_ok_app a b : bytes_ok (a ++ b) = true <-> bytes_ok a = true /\ bytes_ok b = true.
Proof. unfold bytes_ok. rewrite forallb_app. apply andb_true_iff. Qed.

Lemma bytes_ok_firstn_skipn n (s : bytes) :
  bytes_ok s = true -> bytes_ok (firstn n s) = true /\ bytes_ok (skipn n s) = true.
Proof. intro H. rewrite <- (firstn_skipn n s) in H. apply bytes_ok_app, H. Qed.

Lemma pow256_pos w : 0 <= w -> 0 < pow256 w.
Proof. intros; unfold pow256; apply Z.pow_pos_nonneg; lia. Qed.

Lemma pow256_succ n : pow256 (Z.of_nat (S n)) = 256 * pow256 (Z.of_nat n).
Proof. unfold pow256. rewrite Nat2Z.inj_succ, Z.pow_succ_r by lia. reflexivity. Qed.

(* half of 256^w is a power of two, so the two's complement range splits evenly *)
Lemma pow256_split w : 0 < w -> pow256 w = 2 * 2 ^ (8 * w - 1).
Proof.
  intros Hw. unfold pow256. change 256 with (2 ^ 8).
  rewrite <- Z.pow_mul_r, <- Z.pow_succ_r by lia. f_equal. lia.
Qed.

Lemma pow256_half w : 0 < w -> pow256 w / 2 = 2 ^ (8 * w - 1).
Proof. intros Hw. rewrite pow256_split, Z.mul_comm, Z.div_mul by lia. reflexivity. Qed.

Lemma pow256_even w : 0 < w -> pow256 w = 2 * (pow256 w / 2).
Proof. intros Hw. rewrite pow256_half by exact Hw. apply pow256_split, Hw. Qed.

Lemma be_enc_length n v : length (be_enc n v) = n.
Proof.
  revert v; induction n as [|n IH]; intros v; cbn [be_enc]; [reflexivity|].
  rewrite app_length, IH; cbn; lia.
Qed.

(* be_enc read from its first byte; be_dec_snoc is the same for be_dec from its last *)
Lemma be_enc_cons k : forall v, be_enc (S k) v = (v / 256 ^ Z.of_nat k) mod 256 :: be_enc k v.
Proof.
  induction k as [|k IH]; intros v.
  - cbn. rewrite Z.div_1_r. reflexivity.
  - change (be_enc (S (S k)) v) with (be_enc (S k) (v / 256) ++ [v mod 256]).
    rewrite IH. cbn [app]. f_equal.
    rewrite Z.div_div by (try lia; apply Z.pow_pos_nonneg; lia).
    rewrite Nat2Z.inj_succ, Z.pow_succ_r by lia. reflexivity.
Qed.

Lemma zlen_be_enc n v : zlen (be_enc n v) = Z.of_nat n.
Proof. unfold zlen. rewrite be_enc_length. reflexivity. Qed.

Lemma be_dec_acc_app acc a b : be_dec_acc acc (a ++ b) = be_dec_acc (be_dec_acc acc a) b.
Proof. revert acc; induction a as [|x a IH]; intros acc; cbn; [reflexivity|apply IH]. Qed.

Lemma be_dec_snoc a b : be_dec (a ++ [b]) = be_dec a * 256 + b.
Proof. unfold be_dec. rewrite be_dec_acc_app. reflexivity. Qed.

Lemma be_dec_enc n v : 0 <= v < pow256 (Z.of_nat n) -> be_dec (be_enc n v) = v.
Proof.
  revert v; induction n as [|n IH]; intros v Hv.
  - change (pow256 (Z.of_nat 0)) with 1 in Hv. cbn. lia.
  - rewrite pow256_succ in Hv. cbn [be_enc]. rewrite be_dec_snoc, IH by (Z.div_mod_to_equations; lia).
    Z.div_mod_to_equations. lia.
Qed.

Lemma be_enc_bytes_ok n v : bytes_ok (be_enc n v) = true.
Proof.
  revert v; induction n as [|n IH]; intros v; cbn [be_enc]; [reflexivity|].
  apply bytes_ok_app. split; [apply IH|]. cbn. unfold byte_ok. Z.div_mod_to_equations. lia.
Qed.

Lemma be_dec_bound bs : bytes_ok bs = true -> 0 <= be_dec bs < pow256 (zlen bs).
Proof.
  induction bs as [|b bs IH] using rev_ind; intros Hok; [split; reflexivity|].
  apply bytes_ok_app in Hok as [Hok Hb]. cbn in Hb. unfold byte_ok in Hb. specialize (IH Hok).
  unfold zlen in *. rewrite be_dec_snoc, app_length, Nat.add_1_r, pow256_succ. lia.
Qed.

Lemma be_enc_dec bs : bytes_ok bs = true -> be_enc (length bs) (be_dec bs) = bs.
Proof.
  induction bs as [|b bs IH] using rev_ind; intros Hok; [reflexivity|].
  apply bytes_ok_app in Hok as [Hok Hb]. cbn in Hb. unfold byte_ok in Hb.
  rewrite be_dec_snoc, app_length, Nat.add_1_r. cbn [be_enc].
  replace ((be_dec bs * 256 + b) / 256) with (be_dec bs) by (Z.div_mod_to_equations; lia).
  replace ((be_dec bs * 256 + b) mod 256) with b by (Z.div_mod_to_equations; lia).
  rewrite IH by exact Hok. reflexivity.
Qed.

Lemma to_unsigned_cases w v : 0 < w -> - (pow256 w / 2) <= v < pow256 w / 2 ->
  to_unsigned w v = if v <? 0 then v + pow256 w else v.
Proof.
  intros Hw Hv. unfold to_unsigned. pose proof (pow256_even w Hw).
  destruct (Z.ltb_spec v 0).
  - symmetry; apply Z.mod_unique with (-1); lia.
  - apply Z.mod_small; lia.
Qed.

Lemma signed_unsigned w v : 0 < w -> - (pow256 w / 2) <= v < pow256 w / 2 ->
  to_signed w (to_unsigned w v) = v.
Proof.
  intros Hw Hv. rewrite to_unsigned_cases by assumption. unfold to_signed.
  pose proof (pow256_even w Hw).
  destruct (Z.ltb_spec v 0).
  - destruct (Z.ltb_spec (v + pow256 w) (pow256 w / 2)); lia.
  - destruct (Z.ltb_spec v (pow256 w / 2)); lia.
Qed.

Lemma unsigned_range w v : 0 <= w -> 0 <= to_unsigned w v < pow256 w.
Proof. intros; unfold to_unsigned; apply Z.mod_pos_bound; apply pow256_pos; lia. Qed.

Lemma unsigned_signed w u : 0 < w -> 0 <= u < pow256 w -> to_unsigned w (to_signed w u) = u.
Proof.
  intros Hw Hu. unfold to_signed, to_unsigned.
  destruct (Z.ltb_spec u (pow256 w / 2)).
  - apply Z.mod_small; lia.
  - symmetry; apply Z.mod_unique with (-1); lia.
Qed.

Lemma signed_range w u : 0 < w -> 0 <= u < pow256 w -> - (pow256 w / 2) <= to_signed w u < pow256 w / 2.
Proof.
  intros Hw Hu. unfold to_signed. pose proof (pow256_even w Hw).
  destruct (Z.ltb_spec u (pow256 w / 2)); lia.
Qed.

Lemma all_zero_zeros n : all_zero (zeros n) = true.
Proof. induction n; cbn; auto. Qed.

Lemma all_zero_eq bs : all_zero bs = true -> bs = zeros (length bs).
Proof.
  induction bs as [|b bs IH]; cbn; [reflexivity|]. intros H. apply andb_prop in H as [Hb H].
  unfold zeros in *. cbn. f_equal; [destruct b; try discriminate; reflexivity | apply IH; exact H].
Qed.

Lemma take_exact_app a b : take_exact (zlen a) (a ++ b) = Some (a, b).
Proof.
  unfold take_exact, zlen. rewrite app_length.
  replace ((0 <=? Z.of_nat (length a)) && (Z.of_nat (length a) <=? Z.of_nat (length a + length b))) with true by lia.
  rewrite Nat2Z.id, firstn_app_exact, skipn_app_exact by reflexivity. reflexivity.
Qed.

Lemma take_exact_app_len n a b : n = zlen a -> take_exact n (a ++ b) = Some (a, b).
Proof. intros ->; apply take_exact_app. Qed.

Lemma take_exact_spec n bs x r : take_exact n bs = Some (x, r) -> bs = x ++ r /\ zlen x = n.
Proof.
  unfold take_exact. destruct ((0 <=? n) && (n <=? zlen bs)) eqn:E; [|discriminate].
  intros H; injection H as <- <-. split; [symmetry; apply firstn_skipn|].
  unfold zlen in *. rewrite firstn_length. lia.
Qed.

Lemma take_be_enc n v r : take_exact (Z.of_nat n) (be_enc n v ++ r) = Some (be_enc n v, r).
Proof. apply take_exact_app_len. symmetry. apply zlen_be_enc. Qed.

Lemma take_be_dec n bs x r : take_exact n bs = Some (x, r) -> bytes_ok bs = true ->
  bs = x ++ r /\ zlen x = n /\ 0 <= be_dec x < pow256 n.
Proof.
  intros H Hok. apply take_exact_spec in H as [-> L]. apply bytes_ok_app in Hok as [Hx _].
  pose proof (be_dec_bound x Hx) as Hb. rewrite L in Hb. auto.
Qed.

Lemma bytes_eqb_eq a b : bytes_eqb a b = true <-> a = b.
Proof.
  revert b; induction a as [|x a IH]; intros [|y b]; cbn; split; try congruence; try discriminate.
  - intros H. apply andb_prop in H as [H1 H2]. apply IH in H2. f_equal; [lia|assumption].
  - intros H; injection H as -> ->. rewrite Z.eqb_refl. apply IH. reflexivity.
Qed.

Lemma pad_len_range n : 0 <= pad_len n < 8.
Proof. unfold pad_len. apply Z.mod_pos_bound. lia. Qed.

Lemma pad_len_mult n : (n + pad_len n) mod 8 = 0.
Proof. unfold pad_len. Z.div_mod_to_equations. lia. Qed.

Lemma pad_len_mul8 k : pad_len (8 * k) = 0.
Proof. unfold pad_len. rewrite Z.mul_comm, Z.mod_mul by lia. reflexivity. Qed.

Lemma zpad_length n : zlen (zpad n) = pad_len n.
Proof. unfold zpad, zlen, zeros. rewrite repeat_length. pose proof (pad_len_range n). lia. Qed.

(* The primitive code model (Prim.v): the header; the value part of an item (enc_ok, val_len,
   val_bytes), which is what enc_prim writes after the header; the round trip through dec_prim; and
   what a successful dec_prim guarantees about the bytes it consumed and the value it returns. *)
From PK Require Import Base.Bytes Base.BytesProofs Base.Prim.
From Coq Require Import ZifyBool.
Open Scope Z_scope.

Lemma p3 : pow256 (Z.of_nat 3) = 16777216. Proof. reflexivity. Qed.
Lemma p1 : pow256 (Z.of_nat 1) = 256. Proof. reflexivity. Qed.
Lemma p4 : pow256 (Z.of_nat 4) = TWO32. Proof. reflexivity. Qed.
Lemma p8 : pow256 (Z.of_nat 8) = TWO64. Proof. reflexivity. Qed.
Lemma h4 : pow256 4 / 2 = TWO31. Proof. reflexivity. Qed.
Lemma h8 : pow256 8 / 2 = TWO63. Proof. reflexivity. Qed.

Lemma hdr_some tag ty len h :
  hdr tag ty len = Some h -> h = be_enc 3 tag ++ [ty] ++ be_enc 4 len /\ 0 <= len < TWO32.
Proof.
  unfold hdr. destruct ((0 <=? len) && (len <? TWO32)) eqn:El; [|discriminate].
  intros H; injection H as <-. split; [reflexivity|lia].
Qed.

Lemma hdr_total tag ty len : 0 <= len < TWO32 -> exists h, hdr tag ty len = Some h.
Proof. intros H. unfold hdr. replace ((0 <=? len) && (len <? TWO32)) with true by lia. eauto. Qed.

Lemma with_hdr_some tag ty len body bs :
  with_hdr tag ty len body = Some bs -> exists h, hdr tag ty len = Some h /\ bs = h ++ body.
Proof. unfold with_hdr. destruct (hdr tag ty len) as [h|]; [|discriminate]. intros H; injection H as <-. eauto. Qed.

Lemma with_hdr_len tag ty len body bs : with_hdr tag ty len body = Some bs -> zlen bs = 8 + zlen body.
Proof.
  intros H. apply with_hdr_some in H as (h & Hh & ->). apply hdr_some in Hh as [-> _].
  rewrite !zlen_app, !zlen_be_enc. reflexivity.
Qed.

Lemma be_dec_tag t : tag_ok t = true -> be_dec (be_enc 3 t) = t.
Proof. intros Ht. apply be_dec_enc. unfold tag_ok in Ht. rewrite p3. lia. Qed.

Lemma is_tag_next_tag t t' r : tag_ok t' = true -> is_tag_next t (be_enc 3 t' ++ r) = (t' =? t).
Proof. intros Ht. unfold is_tag_next. rewrite (take_be_enc 3), be_dec_tag by exact Ht. reflexivity. Qed.

Lemma dec_hdr_hdr tag ty len h r :
  tag_ok tag = true -> hdr tag ty len = Some h ->
  dec_hdr tag ty (h ++ r) = Some (len, r).
Proof.
  intros Ht Hh. apply hdr_some in Hh as [-> Hl]. unfold dec_hdr.
  rewrite <- !app_assoc.
  rewrite (take_be_enc 3), be_dec_tag by exact Ht. rewrite Z.eqb_refl. cbn [negb].
  rewrite (take_exact_app_len 1 [ty]) by reflexivity.
  replace (be_dec [ty]) with ty by (unfold be_dec; cbn; lia).
  rewrite Z.eqb_refl. cbn [negb].
  rewrite (take_be_enc 4), be_dec_enc by (rewrite p4; lia). reflexivity.
Qed.

Lemma dec_hdr_some tag ty bs len r :
  dec_hdr tag ty bs = Some (len, r) ->
  exists t y l, bs = t ++ y ++ l ++ r /\ zlen t = 3 /\ zlen y = 1 /\ zlen l = 4 /\
                be_dec t = tag /\ be_dec y = ty /\ be_dec l = len.
Proof.
  unfold dec_hdr. intros H.
  destruct (take_exact 3 bs) as [[t r1]|] eqn:E1; [|discriminate].
  destruct (be_dec t =? tag) eqn:Et; [|discriminate].
  destruct (take_exact 1 r1) as [[y r2]|] eqn:E2; [|discriminate].
  destruct (be_dec y =? ty) eqn:Ey; [|discriminate].
  destruct (take_exact 4 r2) as [[l r3]|] eqn:E3; [|discriminate].
  injection H as <- <-.
  apply take_exact_spec in E1 as [-> L1]. apply take_exact_spec in E2 as [-> L2]. apply take_exact_spec in E3 as [-> L3].
  exists t, y, l. repeat split; try assumption; lia.
Qed.

Lemma dec_hdr_spec tag ty bs len r :
  dec_hdr tag ty bs = Some (len, r) -> bytes_ok bs = true ->
  exists h, bs = h ++ r /\ zlen h = 8 /\ 0 <= len < TWO32 /\ bytes_ok r = true.
Proof.
  intros H Hok. apply dec_hdr_some in H as (t & y & l & -> & Lt & Ly & Ll & _ & _ & <-).
  apply bytes_ok_app in Hok as [_ Hok]. apply bytes_ok_app in Hok as [_ Hok]. apply bytes_ok_app in Hok as [Hl Hr].
  pose proof (be_dec_bound l Hl) as Hb. rewrite Ll in Hb.
  exists (t ++ y ++ l). rewrite <- !app_assoc, !zlen_app. repeat split; [lia|apply Hb|apply Hb|exact Hr].
Qed.

Lemma dec_hdr_with_hdr tag len body bs rest : tag_ok tag = true ->
  with_hdr tag STRUCT_CODE len body = Some bs -> dec_hdr tag STRUCT_CODE (bs ++ rest) = Some (len, body ++ rest).
Proof.
  intros Ht H. apply with_hdr_some in H as (h & Hh & ->). rewrite <- app_assoc.
  apply dec_hdr_hdr; [exact Ht|exact Hh].
Qed.

(* a structure is read by dec_hdr and then take_exact on the announced length *)
Lemma dec_struct_with_hdr tag b bs : tag_ok tag = true ->
  with_hdr tag STRUCT_CODE (zlen b) b = Some bs ->
  reads_back (fun s => match dec_hdr tag STRUCT_CODE s with Some (len, r) => take_exact len r | None => None end) bs b.
Proof. intros Ht H rest. rewrite (dec_hdr_with_hdr _ _ _ _ rest Ht H). apply take_exact_app. Qed.

Lemma bitlen_bound a : 0 <= a -> a < 2 ^ bitlen a /\ 1 <= bitlen a.
Proof.
  intros Ha. unfold bitlen. destruct (Z.eqb_spec a 0) as [->|Hn]; [cbn; lia|].
  pose proof (Z.log2_spec a ltac:(lia)). pose proof (Z.log2_nonneg a).
  replace (Z.log2 a + 1) with (Z.succ (Z.log2 a)) by lia. lia.
Qed.

Lemma bitlen_lower a : 0 <= a -> 1 < bitlen a -> 2 ^ (bitlen a - 1) <= a.
Proof.
  intros Ha. unfold bitlen. destruct (Z.eqb_spec a 0); [lia|]. intros _.
  replace (Z.log2 a + 1 - 1) with (Z.log2 a) by lia. apply Z.log2_spec. lia.
Qed.

Lemma bitlen_le a k : 0 <= k -> 0 <= a <= 2 ^ k -> bitlen a <= k + 1.
Proof.
  intros Hk Ha. unfold bitlen. destruct (Z.eqb_spec a 0); [lia|].
  pose proof (Z.log2_le_mono a (2 ^ k) ltac:(lia)) as H. rewrite Z.log2_pow2 in H by lia. lia.
Qed.

Lemma big_words_bitlen v : 64 * (big_words v - 1) <= bitlen (Z.abs v) < 64 * big_words v.
Proof. unfold big_words. Z.div_mod_to_equations. lia. Qed.

Lemma big_words_pos v : 1 <= big_words v.
Proof. pose proof (bitlen_bound (Z.abs v) ltac:(lia)). pose proof (big_words_bitlen v). lia. Qed.

Lemma big_words_upper v : Z.abs v < 2 ^ (64 * big_words v - 1).
Proof.
  pose proof (big_words_bitlen v). pose proof (bitlen_bound (Z.abs v) ltac:(lia)) as [Hlt _].
  pose proof (Z.pow_le_mono_r 2 (bitlen (Z.abs v)) (64 * big_words v - 1) ltac:(lia) ltac:(lia)). lia.
Qed.

Lemma big_words_range v : - (pow256 (8 * big_words v) / 2) <= v < pow256 (8 * big_words v) / 2.
Proof.
  pose proof (big_words_pos v). pose proof (big_words_upper v).
  rewrite pow256_half by lia. replace (8 * (8 * big_words v)) with (64 * big_words v) by lia. lia.
Qed.

(* a number that fits len bytes re-encodes on at most one word more (a full word of sign extension
   is added when the top bit of the magnitude lands on a word boundary) *)
Lemma big_words_signed len u : 0 < len -> 0 <= u < pow256 len -> 8 * big_words (to_signed len u) <= len + 8.
Proof.
  intros Hl Hu. pose proof (signed_range len u Hl Hu) as Hs. rewrite pow256_half in Hs by exact Hl.
  pose proof (bitlen_le (Z.abs (to_signed len u)) (8 * len - 1) ltac:(lia) ltac:(lia)).
  pose proof (big_words_bitlen (to_signed len u)). lia.
Qed.

Lemma zlen_big_bytes v : zlen (big_bytes v) = 8 * big_words v.
Proof. unfold big_bytes. rewrite zlen_be_enc. pose proof (big_words_pos v). lia. Qed.

Lemma big_bytes_signed v : to_signed (8 * big_words v) (be_dec (big_bytes v)) = v.
Proof.
  pose proof (big_words_pos v). unfold big_bytes.
  rewrite be_dec_enc by (rewrite Z2Nat.id by lia; apply unsigned_range; lia).
  apply signed_unsigned; [lia|apply big_words_range].
Qed.

Lemma inr_byte lo hi b : inr lo hi b = true -> byte_ok lo = true -> byte_ok hi = true -> byte_ok b = true.
Proof. unfold inr, byte_ok. lia. Qed.

(* the second byte of a three- or four-byte sequence: its range depends on the lead byte *)
Lemma inr_byte_cases (c1 c2 : bool) l1 h1 l2 h2 b :
  (if c1 then inr l1 h1 b else if c2 then inr l2 h2 b else cont b) = true ->
  byte_ok l1 && byte_ok h1 && byte_ok l2 && byte_ok h2 = true -> byte_ok b = true.
Proof. destruct c1; [|destruct c2]; unfold inr, cont, byte_ok; lia. Qed.

Lemma bytes_ok_cons b r : bytes_ok (b :: r) = byte_ok b && bytes_ok r.
Proof. reflexivity. Qed.

(* Every lead byte and continuation byte utf8_valid accepts lies in a range inside 0..255.  Stated
   for every suffix, so that the induction hypothesis covers the tails one to four bytes further on. *)
Lemma utf8_valid_bytes bs : forall k, utf8_valid (skipn k bs) = true -> bytes_ok (skipn k bs) = true.
Proof.
  induction bs as [|b0 r IH]; intros [|k]; try (intros _; reflexivity); [|exact (IH k)].
  cbn [skipn utf8_valid]. intros Hv.
  destruct (inr 0 127 b0) eqn:E1.
  { rewrite bytes_ok_cons, (inr_byte _ _ _ E1 eq_refl eq_refl). exact (IH 0%nat Hv). }
  destruct (inr 194 223 b0) eqn:E2.
  { destruct r as [|b1 r1]; [discriminate|]. apply andb_prop in Hv as [H1 Hv].
    rewrite !bytes_ok_cons, (inr_byte _ _ _ E2 eq_refl eq_refl), (inr_byte 128 191 b1 H1 eq_refl eq_refl).
    exact (IH 1%nat Hv). }
  destruct (inr 224 239 b0) eqn:E3.
  { destruct r as [|b1 [|b2 r2]]; try discriminate.
    apply andb_prop in Hv as [Hv Hv']. apply andb_prop in Hv as [H1 H2].
    rewrite !bytes_ok_cons, (inr_byte _ _ _ E3 eq_refl eq_refl), (inr_byte_cases _ _ _ _ _ _ _ H1 eq_refl),
      (inr_byte 128 191 b2 H2 eq_refl eq_refl).
    exact (IH 2%nat Hv'). }
  destruct (inr 240 244 b0) eqn:E4; [|discriminate].
  destruct r as [|b1 [|b2 [|b3 r3]]]; try discriminate.
  apply andb_prop in Hv as [Hv Hv']. apply andb_prop in Hv as [Hv H3]. apply andb_prop in Hv as [H1 H2].
  rewrite !bytes_ok_cons, (inr_byte _ _ _ E4 eq_refl eq_refl), (inr_byte_cases _ _ _ _ _ _ _ H1 eq_refl),
    (inr_byte 128 191 b2 H2 eq_refl eq_refl), (inr_byte 128 191 b3 H3 eq_refl eq_refl).
  exact (IH 3%nat Hv').
Qed.

Lemma text_ok_bytes cs : text_ok cs = true -> bytes_ok cs = true.
Proof. exact (utf8_valid_bytes cs 0%nat). Qed.

(* What every branch of enc_prim writes: a header announcing val_len p, the val_len p bytes of the
   value, and zero padding up to a multiple of 8 (the Integer's four zero bytes are zpad 4, the
   8-byte types and BigInteger have none); enc_ok is the range check that comes first. *)

Definition enc_ok (p : pval) : bool :=
  match p with
  | VInt v => (- TWO31 <=? v) && (v <? TWO31)
  | VLong v | VDate v => (- TWO63 <=? v) && (v <? TWO63)
  | VEnum v | VInterval v => (0 <=? v) && (v <? TWO32)
  | VText cs => text_ok cs
  | VBig _ | VBool _ | VBytes _ => true
  end.

Definition val_len (p : pval) : Z :=
  match p with
  | VInt _ | VEnum _ | VInterval _ => 4
  | VLong _ | VDate _ | VBool _ => 8
  | VBig v => 8 * big_words v
  | VText cs | VBytes cs => zlen cs
  end.

Definition val_bytes (p : pval) : bytes :=
  match p with
  | VInt v => be_enc 4 (to_unsigned 4 v)
  | VLong v | VDate v => be_enc 8 (to_unsigned 8 v)
  | VBig v => big_bytes v
  | VEnum v | VInterval v => be_enc 4 v
  | VBool b => be_enc 8 (if b then 1 else 0)
  | VText cs | VBytes cs => cs
  end.

Lemma val_bytes_len p : zlen (val_bytes p) = val_len p.
Proof. destruct p; try apply zlen_be_enc; try reflexivity. apply zlen_big_bytes. Qed.

Lemma val_len_nonneg p : 0 <= val_len p.
Proof. rewrite <- val_bytes_len. apply zlen_nonneg. Qed.

Lemma val_bytes_ok mem p : wf_prim mem p = true -> bytes_ok (val_bytes p) = true.
Proof.
  destruct p; cbn [wf_prim val_bytes]; intros H; try apply be_enc_bytes_ok.
  - apply text_ok_bytes. lia.
  - lia.
Qed.

Lemma enc_prim_eq tag p :
  enc_prim tag p =
  if enc_ok p then with_hdr tag (type_code (ptype_of p)) (val_len p) (val_bytes p ++ zpad (val_len p)) else None.
Proof.
  destruct p; try reflexivity.
  cbn [enc_prim enc_ok val_len val_bytes]. unfold zpad.
  rewrite zlen_big_bytes, pad_len_mul8, app_nil_r. reflexivity.
Qed.

Lemma enc_prim_some tag p : (exists bs, enc_prim tag p = Some bs) <-> enc_ok p = true /\ val_len p < TWO32.
Proof.
  rewrite enc_prim_eq. unfold with_hdr. split.
  - intros [bs H]. destruct (enc_ok p); [|discriminate].
    destruct (hdr tag (type_code (ptype_of p)) (val_len p)) eqn:Eh; [|discriminate].
    apply hdr_some in Eh as [_ Hl]. split; [reflexivity|apply Hl].
  - intros [-> Hl]. destruct (hdr_total tag (type_code (ptype_of p)) _ (conj (val_len_nonneg p) Hl)) as [h ->]. eauto.
Qed.

Lemma enc_prim_len tag p bs : enc_prim tag p = Some bs -> zlen bs = 8 + val_len p + pad_len (val_len p).
Proof.
  rewrite enc_prim_eq. destruct (enc_ok p); [|discriminate]. intros H. apply with_hdr_len in H.
  rewrite H, zlen_app, val_bytes_len, zpad_length. lia.
Qed.

Lemma dec_u32_pad_enc u r : 0 <= u < TWO32 -> dec_u32_pad ((be_enc 4 u ++ zpad 4) ++ r) = Some (u, r).
Proof.
  intros Hu. unfold dec_u32_pad. rewrite <- app_assoc.
  rewrite (take_be_enc 4), (take_exact_app_len 4 (zpad 4)) by reflexivity.
  rewrite be_dec_enc by (rewrite p4; exact Hu). reflexivity.
Qed.

Lemma dec_padded_enc v r : dec_padded (zlen v) ((v ++ zpad (zlen v)) ++ r) = Some (v, r).
Proof.
  unfold dec_padded. rewrite <- app_assoc. rewrite take_exact_app.
  rewrite (take_exact_app_len (pad_len (zlen v)) (zpad (zlen v))) by (symmetry; apply zpad_length).
  unfold zpad. rewrite all_zero_zeros. reflexivity.
Qed.

Section RoundTrip.
Variable mem : Z -> bool.

Lemma wf_prim_iff p :
  wf_prim mem p = true <->
  enc_ok p = true /\ val_len p < TWO32 /\
  match p with VBytes bs => bytes_ok bs = true | VEnum v => mem v = true | _ => True end.
Proof. destruct p; cbn [wf_prim enc_ok val_len]; unfold TWO32; lia. Qed.

Lemma dec_prim_written tag p bs rest :
  wf_prim mem p = true ->
  dec_hdr tag (type_code (ptype_of p)) bs = Some (val_len p, (val_bytes p ++ zpad (val_len p)) ++ rest) ->
  dec_prim mem (ptype_of p) tag bs = Some (p, rest).
Proof.
  intros Hwf Eh. unfold dec_prim. rewrite Eh. clear Eh. apply wf_prim_iff in Hwf as (Hok & _ & Hp).
  destruct p as [v|v|v|v|b|cs|bs0|v|v]; cbn [ptype_of val_len val_bytes enc_ok] in *.
  2, 8: (* PLong, PDate *)
    rewrite app_nil_r, (take_be_enc 8), be_dec_enc by (apply (unsigned_range 8); lia);
    rewrite signed_unsigned by (rewrite ?h8; lia); reflexivity.
  - (* PInt *)
    rewrite dec_u32_pad_enc by (apply (unsigned_range 4); lia).
    rewrite signed_unsigned by (rewrite ?h4; lia). reflexivity.
  - (* PBig *)
    pose proof (big_words_pos v).
    replace (8 * big_words v mod 8 =? 0) with true by (rewrite Z.mul_comm, Z.mod_mul; lia).
    replace (8 * big_words v =? 0) with false by lia. cbn [negb].
    unfold zpad. rewrite pad_len_mul8, app_nil_r.
    rewrite (take_exact_app_len _ (big_bytes v)) by (symmetry; apply zlen_big_bytes).
    rewrite big_bytes_signed. reflexivity.
  - (* PEnum *)
    rewrite dec_u32_pad_enc by lia. rewrite Hp. reflexivity.
  - (* PBool *)
    rewrite app_nil_r, (take_be_enc 8), be_dec_enc by (rewrite p8; unfold TWO64; destruct b; lia).
    destruct b; reflexivity.
  - (* PText *)
    rewrite dec_padded_enc, Hok. reflexivity.
  - (* PBytes *)
    rewrite dec_padded_enc. reflexivity.
  - (* PInterval *)
    rewrite dec_u32_pad_enc by lia. reflexivity.
Qed.

Theorem prim_roundtrip tag p :
  tag_ok tag = true -> wf_prim mem p = true ->
  exists bs, enc_prim tag p = Some bs /\
             forall rest, dec_prim mem (ptype_of p) tag (bs ++ rest) = Some (p, rest).
Proof.
  intros Ht Hwf. pose proof (proj1 (wf_prim_iff p) Hwf) as (Hok & Hlen & _).
  rewrite enc_prim_eq, Hok.
  destruct (hdr_total tag (type_code (ptype_of p)) (val_len p) (conj (val_len_nonneg p) Hlen)) as [h Hh].
  unfold with_hdr; rewrite Hh. eexists; split; [reflexivity|]. intros rest.
  apply dec_prim_written; [exact Hwf|]. rewrite <- app_assoc. exact (dec_hdr_hdr _ _ _ h _ Ht Hh).
Qed.

(* encode succeeds exactly on wf values (given byte-valued content) *)
Theorem enc_some_iff_wf tag p :
  (match p with VBytes bs => bytes_ok bs = true | _ => True end) ->
  (match p with VEnum v => mem v = true | _ => True end) ->
  (exists bs, enc_prim tag p = Some bs) <-> wf_prim mem p = true.
Proof. intros Hb Hm. rewrite enc_prim_some, wf_prim_iff. destruct p; tauto. Qed.

End RoundTrip.

Lemma dec_enc_prim mem tag p bs rest : tag_ok tag = true -> wf_prim mem p = true -> enc_prim tag p = Some bs ->
  dec_prim mem (ptype_of p) tag (bs ++ rest) = Some (p, rest).
Proof.
  intros Ht Hp Hb. destruct (prim_roundtrip mem tag p Ht Hp) as (bs' & Hb' & Hd).
  rewrite Hb in Hb'. injection Hb' as <-. apply Hd.
Qed.

Lemma dec_u32_pad_spec bs u r : dec_u32_pad bs = Some (u, r) -> bytes_ok bs = true ->
  exists used, bs = used ++ r /\ zlen used = 8 /\ 0 <= u < TWO32.
Proof.
  unfold dec_u32_pad. intros H Hok.
  destruct (take_exact 4 bs) as [[x r1]|] eqn:E1; [|discriminate].
  destruct (take_exact 4 r1) as [[p r2]|] eqn:E2; [|discriminate].
  destruct (be_dec p =? 0); [|discriminate]. injection H as <- <-.
  destruct (take_be_dec _ _ _ _ E1 Hok) as (-> & L1 & Hb). apply take_exact_spec in E2 as [-> L2].
  exists (x ++ p). rewrite <- app_assoc, zlen_app. repeat split; [lia|apply Hb|apply Hb].
Qed.

Lemma dec_padded_spec len bs x r : dec_padded len bs = Some (x, r) -> bytes_ok bs = true ->
  exists used, bs = used ++ r /\ zlen used = len + pad_len len /\ zlen x = len /\ bytes_ok x = true.
Proof.
  unfold dec_padded. intros H Hok.
  destruct (take_exact len bs) as [[y r1]|] eqn:E1; [|discriminate].
  destruct (take_exact (pad_len len) r1) as [[p r2]|] eqn:E2; [|discriminate].
  destruct (all_zero p); [|discriminate]. injection H as <- <-.
  apply take_exact_spec in E1 as [-> L1]. apply take_exact_spec in E2 as [-> L2].
  apply bytes_ok_app in Hok as [Hy _].
  exists (y ++ p). rewrite <- app_assoc, zlen_app. repeat split; [lia|exact L1|exact Hy].
Qed.

Section DecSound.
Variable mem : Z -> bool.

(* Once the header is read, a decoder that returns p has consumed at least the padded value of p,
   except that a BigInteger may re-encode one word longer; and p is in the domain of the round trip.
   The bound on len is the one dec_hdr_spec hands over; it would also follow from zlen r < TWO31. *)
Lemma dec_prim_value t tag bs len r p rest :
  dec_hdr tag (type_code t) bs = Some (len, r) -> dec_prim mem t tag bs = Some (p, rest) ->
  bytes_ok r = true -> 0 <= len < TWO32 -> zlen r < TWO31 ->
  exists used, r = used ++ rest /\ val_len p + pad_len (val_len p) <= zlen used + 8 /\
               wf_prim mem p = true /\ ptype_of p = t.
Proof.
  intros Eh H Hr Hlen Hsmall. unfold dec_prim in H. rewrite Eh in H. clear Eh.
  destruct t.
  2, 8: (* PLong, PDate *)
    destruct (negb (len =? 8)); [discriminate|];
    destruct (take_exact 8 r) as [[x r']|] eqn:Ex; [|discriminate]; injection H as <- <-;
    apply (take_be_dec _ _ _ _ Ex) in Hr as (Hx & Lx & Hb); exists x;
    pose proof (signed_range 8 (be_dec x) ltac:(lia) Hb) as Hs; rewrite h8 in Hs;
    cbn [wf_prim val_len]; repeat split; [exact Hx|change (pad_len 8) with 0; lia|lia].
  - (* PInt *)
    destruct (negb (len =? 4)); [discriminate|].
    destruct (dec_u32_pad r) as [[u r']|] eqn:Eu; [|discriminate]. injection H as <- <-.
    apply (dec_u32_pad_spec _ _ _ Eu) in Hr as (used & Hu & Lu & Hb). exists used.
    pose proof (signed_range 4 u ltac:(lia) Hb) as Hs. rewrite h4 in Hs.
    cbn [wf_prim val_len]. repeat split; [exact Hu|change (pad_len 4) with 4; lia|lia].
  - (* PBig *)
    destruct (negb (len mod 8 =? 0)); [discriminate|].
    destruct (len =? 0) eqn:E0; [discriminate|].
    destruct (take_exact len r) as [[x r']|] eqn:Ex; [|discriminate]. injection H as <- <-.
    apply (take_be_dec _ _ _ _ Ex) in Hr as (Hx & Lx & Hb). exists x.
    pose proof (big_words_signed len (be_dec x) ltac:(lia) Hb) as Hw.
    rewrite Hx, zlen_app in Hsmall. pose proof (zlen_nonneg r').
    cbn [wf_prim val_len]. rewrite pad_len_mul8. unfold TWO31, TWO32 in *.
    repeat split; [exact Hx|lia|lia].
  - (* PEnum *)
    destruct (negb (len =? 4)); [discriminate|].
    destruct (dec_u32_pad r) as [[u r']|] eqn:Eu; [|discriminate].
    destruct (mem u) eqn:Emem; [|discriminate]. injection H as <- <-.
    apply (dec_u32_pad_spec _ _ _ Eu) in Hr as (used & Hu & Lu & Hb). exists used.
    cbn [wf_prim val_len]. rewrite Emem. repeat split; [exact Hu|change (pad_len 4) with 4; lia|lia].
  - (* PBool *)
    destruct (take_exact 8 r) as [[x r']|] eqn:Ex; [|discriminate].
    apply take_exact_spec in Ex as [Hx Lx].
    assert (exists b, p = VBool b /\ rest = r') as (b & -> & ->).
    { destruct (be_dec x =? 1); [|destruct (be_dec x =? 0); [|discriminate]]; injection H as <- <-; eauto. }
    exists x. cbn [val_len]. repeat split; [exact Hx|change (pad_len 8) with 0; lia].
  - (* PText *)
    destruct (dec_padded len r) as [[x r']|] eqn:Ex; [|discriminate].
    destruct (text_ok x) eqn:Ea; [|discriminate]. injection H as <- <-.
    apply (dec_padded_spec _ _ _ _ Ex) in Hr as (used & Hu & Lu & Lx & Hx). exists used.
    cbn [wf_prim val_len]. rewrite Ea, Lx. unfold TWO32 in *. repeat split; [exact Hu|lia|lia].
  - (* PBytes *)
    destruct (dec_padded len r) as [[x r']|] eqn:Ex; [|discriminate]. injection H as <- <-.
    apply (dec_padded_spec _ _ _ _ Ex) in Hr as (used & Hu & Lu & Lx & Hx). exists used.
    cbn [wf_prim val_len]. rewrite Hx, Lx. unfold TWO32 in *. repeat split; [exact Hu|lia|lia].
  - (* PInterval *)
    destruct (negb (len =? 4)); [discriminate|].
    destruct (dec_u32_pad r) as [[u r']|] eqn:Eu; [|discriminate]. injection H as <- <-.
    apply (dec_u32_pad_spec _ _ _ Eu) in Hr as (used & Hu & Lu & Hb). exists used.
    cbn [wf_prim val_len]. repeat split; [exact Hu|change (pad_len 4) with 4; lia|lia].
Qed.

(* how much a decoder consumes, against what re-encoding its result produces *)
Theorem dec_sound t tag bs p rest :
  tag_ok tag = true -> bytes_ok bs = true -> zlen bs < TWO31 ->
  dec_prim mem t tag bs = Some (p, rest) ->
  exists used bs', bs = used ++ rest /\ 8 <= zlen used /\
                   enc_prim tag p = Some bs' /\ zlen bs' <= zlen used + 8 /\
                   wf_prim mem p = true /\ ptype_of p = t.
Proof.
  intros Ht Hok Hsmall H.
  destruct (dec_hdr tag (type_code t) bs) as [[len r]|] eqn:Eh; [|unfold dec_prim in H; rewrite Eh in H; discriminate].
  destruct (dec_hdr_spec _ _ _ _ _ Eh Hok) as (h & -> & Lh & Hlen & Hr). rewrite zlen_app in Hsmall.
  destruct (dec_prim_value _ _ _ _ _ _ _ Eh H Hr Hlen ltac:(lia)) as (used & -> & Hb & Hwf & Hty).
  destruct (prim_roundtrip mem tag p Ht Hwf) as (bs' & Henc & _).
  pose proof (enc_prim_len _ _ _ Henc) as Hl. pose proof (zlen_nonneg used) as Hu.
  exists (h ++ used), bs'. rewrite app_assoc, zlen_app.
  (* lia is slow with the boolean hypotheses Ht, Hok, Hr, Hwf in its context *)
  repeat split; try assumption; clear - Lh Hb Hl Hu; lia.
Qed.

(* for any byte string the decoder accepts: decode, encode, decode gives the same value *)
Theorem dec_enc_dec t tag bs p rest :
  tag_ok tag = true -> bytes_ok bs = true -> zlen bs < TWO31 ->
  dec_prim mem t tag bs = Some (p, rest) ->
  exists bs', enc_prim tag p = Some bs' /\ forall rest', dec_prim mem t tag (bs' ++ rest') = Some (p, rest').
Proof.
  intros Ht Hok Hs H. destruct (dec_sound _ _ _ _ _ Ht Hok Hs H) as (_ & _ & _ & _ & _ & _ & Hwf & <-).
  exact (prim_roundtrip mem tag p Ht Hwf).
Qed.

End DecSound.

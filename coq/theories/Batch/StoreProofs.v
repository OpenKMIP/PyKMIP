(* C08 - the concrete handlers of Store.v as an instance of GenericProofs.v.
   `clean` (no unpublished change) is the session invariant.  The rollback alone gives the frame hypothesis:
   lift_fail_frame, handle_fail_frame.  The handlers' own discipline (`disciplined`, one lemma per handler,
   dispatch_disciplined) gives the rest: handle_clean, the frame even without the rollback (props/C08.v), and the
   placeholder facts over `creating` and `with_target`. *)
From Coq Require Import ZArith List Bool Lia.
From PK Require Import Batch.Generic Batch.GenericProofs Batch.Store.
Import ListNotations.
Open Scope Z_scope.

(* The discipline every handler follows - guards, then the mutation, then commit - seen from its result:
   a refusal hands back the working state it was given; a creating operation that succeeds has inserted an
   object of the requester under an identifier issued past `next w`, committed, and put that identifier in the
   ID placeholder; any other success leaves the placeholder alone and, if it does not commit, the store too. *)
Definition disciplined (h : header) (creates : bool) (w : store) (r : hres) : Prop :=
  match r with
  | HFail _ w' => w' = w
  | HOk w' c pl =>
      if creates
      then exists o w0, w' = insert o w0 /\ c = true /\ pl = Some (o_uid o) /\
                        o_owner o = h_user h /\ next w <= o_uid o <= next w0
      else (c = false -> w' = w) /\ pl = None
  end.

(* a handler is a tree of guards: split on every guard, look at each leaf *)
Ltac leaves := repeat match goal with |- context [match ?x with _ => _ end] => destruct x end; simpl; try easy.

(* the leaf at which a creating handler succeeds *)
Lemma created_leaf : forall h w o w0,
    o_owner o = h_user h -> next w <= o_uid o <= next w0 ->
    disciplined h true w (HOk (insert o w0) true (Some (o_uid o))).
Proof. intros h w o w0 Ho Hu. exists o, w0. auto. Qed.

Lemma create_disciplined : forall h w sym unsup a l m lok names groups sens,
    disciplined h true w (h_create h w sym unsup a l m lok names groups sens).
Proof. intros. unfold h_create. leaves; apply created_leaf; simpl; (reflexivity || lia). Qed.

Lemma register_disciplined : forall h w k unsup inap names groups,
    disciplined h true w (h_register h w k unsup inap names groups).
Proof. intros. unfold h_register. leaves; apply created_leaf; simpl; (reflexivity || lia). Qed.

Lemma get_disciplined : forall h w pl tgt, disciplined h false w (h_get h w pl tgt).
Proof. intros. unfold h_get. leaves. Qed.

Lemma activate_disciplined : forall h w pl tgt, disciplined h false w (h_activate h w pl tgt).
Proof. intros. unfold h_activate. leaves. Qed.

Lemma revoke_disciplined : forall h w pl tgt c, disciplined h false w (h_revoke h w pl tgt c).
Proof. intros. unfold h_revoke. leaves. Qed.

Lemma destroy_disciplined : forall h w pl tgt, disciplined h false w (h_destroy h w pl tgt).
Proof. intros. unfold h_destroy. leaves. Qed.

Lemma modify_disciplined : forall h w pl tgt a idx v, disciplined h false w (h_modify h w pl tgt a idx v).
Proof. intros. unfold h_modify. leaves. Qed.

Lemma set_disciplined : forall h w pl tgt a v, disciplined h false w (h_set h w pl tgt a v).
Proof. intros. unfold h_set. leaves. Qed.

Lemma delete_disciplined : forall h w pl tgt a idx, disciplined h false w (h_delete h w pl tgt a idx).
Proof. intros. unfold h_delete. leaves. Qed.

Lemma keypair_disciplined : forall h w ok pn vn, disciplined h true w (h_keypair h w ok pn vn).
Proof. intros. unfold h_keypair. leaves; apply created_leaf; simpl; (reflexivity || lia). Qed.

Lemma derive_disciplined : forall h w ok k names, disciplined h true w (h_derive h w ok k names).
Proof. intros. unfold h_derive. leaves; apply created_leaf; simpl; (reflexivity || lia). Qed.

Definition creating (b : body) : bool :=
  match b with BCreate _ _ _ _ _ _ _ _ _ | BRegister _ _ _ _ _ | BKeyPair _ _ _ | BDerive _ _ _ => true | _ => false end.

Lemma dispatch_disciplined : forall h w pl b, disciplined h (creating b) w (dispatch h w pl b).
Proof.
  intros h w pl b.
  destruct b; simpl;
    auto using create_disciplined, register_disciplined, get_disciplined, activate_disciplined, revoke_disciplined,
      destroy_disciplined, modify_disciplined, set_disciplined, delete_disciplined, keypair_disciplined, derive_disciplined;
    leaves.
Qed.

Definition clean (s : session) : Prop := working s = committed s.

(* The rollback makes the frame structural: WHATEVER a handler did to the working state before it
   raised, a failed item met in a clean session leaves session and placeholder as they were. *)
Lemma lift_fail_frame : forall (r : hres) s pl reason s' p',
    clean s -> lift r s pl = (Fail reason, s', p') -> s' = s /\ p' = pl.
Proof.
  unfold lift, clean. intros r s pl reason s' p' Hc H. destruct r as [w c p0|r0 w]; [discriminate|].
  inversion H; subst. split; [|reflexivity]. destruct s as [cm wk]. simpl in *. now subst.
Qed.

(* the frame hypothesis of GenericProofs.v, for the concrete handler *)
Theorem handle_fail_frame : forall h s p it r s' p',
    clean s -> handle h s p it = (Fail r, s', p') -> s' = s /\ p' = p.
Proof. unfold handle. intros. eapply lift_fail_frame; eauto. Qed.

(* the session never carries unpublished changes between items *)
Lemma handle_clean : forall h s p it o s' p', clean s -> handle h s p it = (o, s', p') -> clean s'.
Proof.
  unfold handle, lift, clean. intros h s p it o s' p' Hc H.
  pose proof (dispatch_disciplined h (working s) p (it_body it)) as D.
  destruct (dispatch h (working s) p (it_body it)) as [w [|] pl|reason w]; inversion H; subst; simpl; trivial.
  destruct (creating (it_body it)); [destruct D as (o & w0 & _ & E & _); discriminate E|].
  destruct D as [D _]. now rewrite D.
Qed.

Lemma open_clean : forall st, clean (open_session st).
Proof. reflexivity. Qed.

Lemma close_open : forall st, close_session (open_session st) = st.
Proof. reflexivity. Qed.

Definition run_without_failed_c := run_without_failed session body handle clean handle_clean handle_fail_frame.
Definition request_error_no_effect_store := request_error_no_effect session store body open_session close_session handle.
Definition request_error_iff_c := request_error_iff session store body open_session close_session handle.
Definition process_results_store := process_results session store body open_session close_session handle.

(* the same item with its identifier filled in *)
Definition with_target (u : Z) (b : body) : body :=
  match b with
  | BGet None => BGet (Some u)
  | BActivate None => BActivate (Some u)
  | BRevoke None c => BRevoke (Some u) c
  | BDestroy None => BDestroy (Some u)
  | BModify None a i v => BModify (Some u) a i v
  | BSet None a v => BSet (Some u) a v
  | BDelete None a i => BDelete (Some u) a i
  | b => b
  end.

Lemma fetch_placeholder : forall user u w pl, fetch user None (Some u) w = fetch user (Some u) pl w.
Proof. reflexivity. Qed.

(* an identifier-less item is processed exactly as if it named the object the placeholder holds *)
Lemma placeholder_resolves : forall h w u b pl,
    dispatch h w (Some u) b = dispatch h w pl (with_target u b).
Proof.
  intros h w u b pl. destruct b; try reflexivity; destruct tgt; reflexivity.
Qed.

Lemma lift_created : forall h o w s pl s' p',
    o_owner o = h_user h -> next (working s) <= o_uid o <= next w ->
    lift (HOk (insert o w) true (Some (o_uid o))) s pl = (OK, s', p') ->
    exists u o', p' = Some u /\ next (working s) <= u < next (working s') /\
                 In o' (objs (working s')) /\ o_uid o' = u /\ o_owner o' = h_user h /\
                 committed s' = working s'.
Proof.
  intros h o w s pl s' p' Ho Hu H. inversion H; subst. exists (o_uid o), o. simpl.
  repeat split; try lia; auto. apply in_or_app. right. now left.
Qed.

(* a successful creating item publishes its new object(s) and leaves the identifier of one of them,
   owned by the requester, in the placeholder (CreateKeyPair: the private key) *)
Lemma creating_sets_placeholder : forall h s p it s' p',
    creating (it_body it) = true -> handle h s p it = (OK, s', p') ->
    exists u o, p' = Some u /\ next (working s) <= u < next (working s') /\
                In o (objs (working s')) /\ o_uid o = u /\ o_owner o = h_user h /\
                committed s' = working s'.
Proof.
  unfold handle. intros h s p it s' p' Hc H.
  pose proof (dispatch_disciplined h (working s) p (it_body it)) as D. rewrite Hc in D.
  destruct (dispatch h (working s) p (it_body it)) as [w c pl|reason w]; [|discriminate].
  destruct D as (o & w0 & -> & -> & -> & Ho & Hu). exact (lift_created _ _ _ _ _ _ _ Ho Hu H).
Qed.

Lemma non_creating_keeps_placeholder : forall h s p it o s' p',
    creating (it_body it) = false -> handle h s p it = (o, s', p') -> p' = p.
Proof.
  unfold handle, lift. intros h s p it o s' p' Hc H.
  pose proof (dispatch_disciplined h (working s) p (it_body it)) as D. rewrite Hc in D.
  destruct (dispatch h (working s) p (it_body it)) as [w c pl|reason w]; inversion H; subst; [|reflexivity].
  destruct D as [_ ->]. reflexivity.
Qed.

Lemma failing_keeps_placeholder : forall h s p it r s' p', handle h s p it = (Fail r, s', p') -> p' = p.
Proof.
  unfold handle, lift. intros h s p it r s' p' H.
  destruct (dispatch h (working s) p (it_body it)); [discriminate|]. now inversion H.
Qed.

(* items between the creation and the use: anything that is not itself a creating item *)
Lemma exec_non_creating_keeps_placeholder : forall h mid s p,
    forallb (fun it => negb (creating (it_body it))) mid = true ->
    snd (exec session body handle h s p mid) = p.
Proof.
  induction mid as [|it rest IH]; intros s p Hall; [reflexivity|].
  simpl in Hall. apply andb_true_iff in Hall. destruct Hall as [Hit Hrest]. simpl.
  destruct (handle h s p it) as [[o s1] p1] eqn:Hh.
  apply negb_true_iff in Hit.
  rewrite (non_creating_keeps_placeholder _ _ _ _ _ _ _ Hit Hh). now apply IH.
Qed.

(* items that only read are as removable as failed ones *)
Definition read_only (b : body) : bool :=
  match b with BGet _ | BReadOnly _ | BOpaqueRO _ => true | _ => false end.
Definition keep_writing (it : item body) (r : result) : bool := r_ok r && negb (read_only (it_body it)).

Lemma read_only_frame : forall h s p it s' p',
    read_only (it_body it) = true -> handle h s p it = (OK, s', p') -> s' = s /\ p' = p.
Proof.
  intros h [cm wk] p it s' p' Hro H. unfold handle, lift in H.
  destruct (it_body it); try discriminate; simpl in H.
  - unfold h_get in H. destruct (fetch (h_user h) tgt p wk); inversion H; auto.
  - destruct (ver_ge (h_ver h) minver); inversion H; auto.
  - destruct ok; inversion H; auto.
Qed.

Lemma keep_writing_dropped_frame : forall h s p it o s' p',
    clean s -> handle h s p it = (o, s', p') -> keep_writing it (mk_result body it o) = false -> s' = s /\ p' = p.
Proof.
  unfold keep_writing. intros h s p it o s' p' Hc Hh Hk. destruct o as [|r]; [|eapply handle_fail_frame; eauto].
  simpl in Hk. apply negb_false_iff in Hk. eapply read_only_frame; eauto.
Qed.

Lemma keep_writing_ok : forall (it : item body) o, keep_writing it (mk_result body it o) = true -> is_ok o = true.
Proof. unfold keep_writing. intros it o H. simpl in H. apply andb_true_iff in H. tauto. Qed.

(* non-vacuity: the model can express the defect *)
Definition demo_store : store :=
  {| objs := [ {| o_uid := 1; o_owner := 1; o_kind := 2; o_state := S_DEACT; o_names := [1]; o_groups := []; o_sens := false |} ];
     next := 2 |}.
Definition demo_header : header :=
  {| h_ver := (1,2); h_now := 100; h_ts := None; h_async := None; h_opt := Some 1; h_order := None; h_user := 1 |}.
Definition demo_items : list (item body) :=
  [ Build_item 18 (Some [1]) (BActivate (Some 1));
    Build_item 1 (Some [2]) (BCreate true false true true true true [] [] None) ].

Definition process_late := process_request session store body open_session close_session handle_late.
Definition process_late_without_rollback :=
  process_request session store body open_session close_session handle_late_without_rollback.

(* the faithful handlers on the same input: the failed item leaves the key alone *)
Lemma faithful_on_demo :
  exists rs st', process demo_store demo_header demo_items = (inr rs, st') /\
                 map r_ok rs = [false; true] /\
                 option_map o_state (lookup 1 st') = Some S_DEACT.
Proof. eexists. eexists. vm_compute. repeat split. Qed.

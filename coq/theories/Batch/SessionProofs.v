(* C08 at the session layer: every error answer leaves the store untouched EXCEPT the
   RESPONSE_TOO_LARGE substitution, which discards the results of a batch that has
   already been executed (known finding C08-response-too-large-after-effect). *)
From Coq Require Import ZArith List Bool.
From PK Require Import Batch.Generic Batch.GenericProofs Batch.Store Batch.StoreProofs Batch.Session.
Import ListNotations.
Open Scope Z_scope.

(* the statement at full strength: an error answer means nothing happened *)
Definition session_no_unreported_effect_statement : Prop :=
  forall st h max size its a st',
    session_answer st h max size its = (a, st') -> answer_is_error a = true -> st' = st.

(* what is provable: every error answer other than the too-large substitution *)
Lemma session_error_no_effect_partial : forall st h max size its a st',
    session_answer st h max size its = (a, st') -> answer_is_error a = true -> a <> ATooLarge -> st' = st.
Proof.
  unfold session_answer. intros st h max size its a st' H He Hn.
  destruct (process st h its) as [[e|rs] st1] eqn:Hp.
  - inversion H; subst. exact (request_error_no_effect_store _ _ _ _ _ Hp).
  - destruct (effective_max max <? size); inversion H; subst; [congruence|discriminate].
Qed.

(* the witness: a Create with a maximum response size of 1 byte is executed, committed,
   and answered with an error *)
Definition tl_items : list (item body) := [ Build_item 1 None (BCreate true false true true true true [] [] None) ].
Definition tl_header : header :=
  {| h_ver := (1,2); h_now := 100; h_ts := None; h_async := None; h_opt := None; h_order := None; h_user := 1 |}.

Lemma session_too_large_witness :
  exists st', session_answer demo_store tl_header (Some 1) 200 tl_items = (ATooLarge, st') /\
              lookup 2 st' <> None /\ lookup 2 demo_store = None.
Proof. eexists. vm_compute. repeat split; discriminate. Qed.

Lemma session_no_unreported_effect_refuted_lemma : ~ session_no_unreported_effect_statement.
Proof.
  intros Hall.
  destruct session_too_large_witness as [st' [Ha [Hin Hout]]].
  specialize (Hall _ _ _ _ _ _ _ Ha eq_refl). subst st'. contradiction.
Qed.

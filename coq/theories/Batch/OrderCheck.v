(* C08, tie T: the obligation on the code extracted from engine.py (gen/BatchOrder.v,
   regenerated on every run): in every operation handler, no explicit `raise` is reachable
   while a loaded object or the session holds an uncommitted change - up to the residual
   entries below, which the path-insensitive analysis cannot exclude and which are
   discharged by the correspondence K (per-item observation "session not dirty") instead.
   Three more obligations on the same extraction: a failed item is rolled back, a request runs under the engine
   lock, the placeholder is reset before the first item. *)
From Coq Require Import String List Bool.
From PK Require Import Batch.Order.
From PKGen Require Import BatchOrder.
Import ListNotations.
Open Scope string_scope.

(* Residual: the duplicate-name raise of _set_attribute_on_managed_object sits in its multi-valued
   branch (after `names.extend`).  ModifyAttribute calls the helper only for single-valued
   attributes (both forms in _process_modify_attribute test is_attribute_multivalued first) and
   SetAttribute refuses multi-valued attributes before the call (_process_set_attribute); the analysis does not follow that the
   attribute name tested by the caller is the one the helper tests again.  Create / Register /
   CreateKeyPair / DeriveKey reach the same raise with a TRANSIENT object (not yet added to the
   session), which the analysis knows.  SetAttribute passes a one-entry dictionary, so the loop
   of _set_attributes_on_managed_object runs once (CallOnce). *)
Definition allowed_late_raises : list (string * string) :=
  [("_process_modify_attribute", "_set_attribute_on_managed_object: Cannot set duplicate name values.");
   ("_process_set_attribute", "_set_attribute_on_managed_object: Cannot set duplicate name values.")].

Definition pair_eqb (a b : string * string) : bool := String.eqb (fst a) (fst b) && String.eqb (snd a) (snd b).
Definition all_allowed (found : list (string * list string)) : bool :=
  forallb (fun p => forallb (fun l => existsb (pair_eqb (fst p, l)) allowed_late_raises) (snd p)) found.

(* Both obligations on a handler read the same run of the analysis, so the table is walked once:
   every raise reached in a dirty state is an allowed one, and the handler does not end dirty
   (a "placeholder set before commit" entry would show up among the raises). *)
Definition result_ok (h : string) (r : res) : bool :=
  forallb (fun l => existsb (pair_eqb (h, l)) allowed_late_raises) (viols r) &&
  negb (match join (fall r) (exits r) with Some x => dirty x | None => false end).
Definition handler_checked (env : list (string * code)) (h : string) : bool :=
  match lookup_code h env with
  | None => false
  | Some c => result_ok h (analyse 400 env Knone false c (Some clean_st))
  end.

Lemma forallb_dedup : forall f l, forallb f l = true -> forallb f (dedup l) = true.
Proof.
  induction l as [|x l IH]; simpl; [reflexivity|]. intros H. apply andb_true_iff in H. destruct H as [Hx Hl].
  destruct (existsb (String.eqb x) l); simpl; rewrite ?Hx; auto.
Qed.

Lemma all_allowed_cons : forall env h hs,
    all_allowed (late_raises env (h :: hs)) =
    forallb (fun l => existsb (pair_eqb (h, l)) allowed_late_raises) (late_raises_of env h) && all_allowed (late_raises env hs).
Proof. intros. unfold late_raises. cbn [map filter snd]. destruct (late_raises_of env h); reflexivity. Qed.

Lemma handlers_checked_sound : forall env hs,
    forallb (handler_checked env) hs = true ->
    all_allowed (late_raises env hs) = true /\ forallb (fun h => negb (ends_dirty_of env h)) hs = true.
Proof.
  induction hs as [|h hs IH]; [split; reflexivity|]. cbn [forallb]. intros H.
  apply andb_true_iff in H. destruct H as [Hh Hs]. destruct (IH Hs) as [IH1 IH2].
  rewrite all_allowed_cons, IH1, IH2. unfold handler_checked in Hh. unfold late_raises_of, ends_dirty_of.
  (* the analysis itself plays no part: it stays folded *)
  revert Hh. generalize (analyse 400 env Knone false). intros an Hh.
  destruct (lookup_code h env) as [c|]; [|discriminate].
  apply andb_true_iff in Hh. destruct Hh as [Hv Hd]. cbv zeta. now rewrite (forallb_dedup _ _ Hv), Hd.
Qed.

Lemma handlers_checked : forallb (handler_checked engine_methods) operation_handlers = true.
Proof. vm_compute. reflexivity. Qed.

Lemma handlers_counted : List.length operation_handlers = 21.
Proof. reflexivity. Qed.

(* _process_batch rolls the session back after an item that failed: whatever the item left
   pending (also the INSERTs of a commit the database refused) is discarded before the next item runs. *)
Definition failed_items_are_rolled_back : Prop := rolls_back_after engine_methods "_process_batch" "_process_operation" = true.
Lemma batch_rolls_back : failed_items_are_rolled_back.
Proof. vm_compute. reflexivity. Qed.

(* The whole of process_request - placeholder reset, identity, version, batch - runs under the engine lock
   (@_synchronize on process_request itself, not on a part of it): the per-request fields of the shared engine
   object (the ID placeholder among them) cannot be reset by another connection in the middle of a batch.
   Interleavings themselves are property C10's. *)
Definition process_request_locked : Prop := existsb (String.eqb "process_request") synchronized_methods = true.
Lemma process_request_is_locked : process_request_locked.
Proof. vm_compute. reflexivity. Qed.

(* the placeholder is reset before anything else happens in a request *)
Definition placeholder_reset_comes_first : Prop :=
  match lookup_code "process_request" engine_methods with
  | Some (Seq (SetPh :: _)) => true
  | _ => false
  end = true.
Lemma placeholder_reset_first : placeholder_reset_comes_first.
Proof. vm_compute. reflexivity. Qed.

(* the analysis does report the shapes the property is about *)
Example order_flags_late_guard :
  late_raises [("h", Seq [Call "load" Knone; Mut; If (Seq [Raise "h: too late"]) (Seq []); Commit]); ("load", Seq [If (Seq [Raise "load: not found"]) (Seq []); Ret])] ["h"]
  = [("h", ["h: too late"])].
Proof. vm_compute. reflexivity. Qed.

Example order_flags_helper_on_loaded_object :
  late_raises [("h", Seq [Call "helper" Kloaded; Commit]); ("helper", Seq [MutParam; If (Seq [Raise "helper: dup"]) (Seq [])])] ["h"]
  = [("h", ["helper: dup"])].
Proof. vm_compute. reflexivity. Qed.

Example order_accepts_helper_on_transient_object :
  late_raises [("h", Seq [Call "helper" Ktransient; Mut; Commit; SetPh]); ("helper", Seq [MutParam; If (Seq [Raise "helper: dup"]) (Seq [])])] ["h"]
  = [].
Proof. vm_compute. reflexivity. Qed.

Example order_loop_once_vs_many :
  late_raises [("h", Seq [CallOnce "each" Kloaded; Commit]); ("g", Seq [Call "each" Kloaded; Commit]);
               ("each", Seq [Loop (Seq [If (Seq [Raise "each: refused"]) (Seq []); MutParam])])] ["h"; "g"]
  = [("g", ["each: refused"])].
Proof. vm_compute. reflexivity. Qed.

Example order_flags_raise_after_commit :
  late_raises [("h", Seq [Mut; Commit; If (Seq [Raise "h: bad answer"]) (Seq []); Ret])] ["h"]
  = [("h", ["after a commit that took effect - h: bad answer"])].
Proof. vm_compute. reflexivity. Qed.

(* C08 - theorems about the batch loop, for ANY handler that satisfies the frame
   hypothesis (a failing item leaves the in-batch state and the placeholder unchanged).
   StoreProofs.v discharges the hypothesis for the concrete handlers.
   run_induction is the induction over the loop from which every lemma about `run` starts; the hypotheses on the
   handler come in as they are needed; Section Kept (process_kept) removes any class of items that leave state and
   placeholder alone, the failed ones among them. *)
From Coq Require Import ZArith List Bool Lia.
From PK Require Import Batch.Generic.
Import ListNotations.
Open Scope Z_scope.

(* the conditions that select the request-level error paths *)
Definition ts_ok (h : header) : bool :=
  match h_ts h with None => true | Some t => (t <=? h_now h) && (h_now h - t <? 60) end.
Definition async_on (h : header) : bool := match h_async h with Some true => true | _ => false end.
Definition undo_on (h : header) : bool := match h_opt h with Some 3 => true | _ => false end.

Lemma check_header_flat : forall h,
    check_header h =
    if negb (ver_supported (h_ver h)) then Some EVersion
    else if negb (ts_ok h) then (match h_ts h with Some t => if h_now h <? t then Some EFuture else Some EStale | None => None end)
    else if async_on h then Some EAsync
    else if undo_on h then Some EUndo else None.
Proof.
  intros h. unfold check_header, ts_ok, async_on, undo_on.
  destruct (ver_supported (h_ver h)); simpl; [|reflexivity].
  destruct (h_ts h) as [t|]; simpl; [|reflexivity].
  destruct ((t <=? h_now h) && (h_now h - t <? 60)); simpl; [reflexivity|].
  destruct (h_now h <? t); reflexivity.
Qed.

Section Proofs.
  Variables St Store I : Type.
  Variable open_session : Store -> St.
  Variable close_session : St -> Store.
  Variable handle : header -> St -> option Z -> item I -> outcome * St * option Z.

  Notation run := (run St I handle).
  Notation exec := (exec St I handle).
  Notation process_request := (process_request St Store I open_session close_session handle).
  Notation mk_result := (mk_result I).
  Notation succeeded := (succeeded I).
  Notation check_ids := (check_ids I).

  Lemma ok_mk : forall it o, r_ok (mk_result it o) = is_ok o.
  Proof. reflexivity. Qed.

  (* Induction over the loop: it ends with the list, or with an item that failed under Stop;
     otherwise the item's result is put in front of those of the rest. *)
  Lemma run_induction : forall h c (P : St -> option Z -> list (item I) -> list result -> St -> option Z -> Prop),
      (forall s p, P s p [] [] s p) ->
      (forall s p it rest o s1 p1,
          handle h s p it = (o, s1, p1) -> is_ok o = false -> c = false ->
          P s p (it :: rest) [mk_result it o] s1 p1) ->
      (forall s p it rest o s1 p1 rs s2 p2,
          handle h s p it = (o, s1, p1) -> is_ok o || c = true ->
          run h c s1 p1 rest = (rs, s2, p2) -> P s1 p1 rest rs s2 p2 ->
          P s p (it :: rest) (mk_result it o :: rs) s2 p2) ->
      forall its s p rs s' p', run h c s p its = (rs, s', p') -> P s p its rs s' p'.
  Proof.
    intros h c P Hnil Hstop Hcont. induction its as [|it rest IH]; intros s p rs s' p' H; simpl in H.
    - inversion H; subst. apply Hnil.
    - destruct (handle h s p it) as [[o s1] p1] eqn:Hh.
      rewrite <- negb_orb in H. destruct (is_ok o || c) eqn:Hoc; simpl in H.
      + destruct (run h c s1 p1 rest) as [[rs2 s2] p2] eqn:Hr.
        inversion H; subst. eapply Hcont; eauto.
      + inversion H; subst. apply orb_false_iff in Hoc. now apply Hstop.
  Qed.

  Lemma run_length : forall h c its s p rs s' p',
      run h c s p its = (rs, s', p') -> (length rs <= length its)%nat.
  Proof. intros h c. refine (run_induction h c _ _ _ _); simpl; intros; lia. Qed.

  Lemma run_nth : forall h c its s p rs s' p',
      run h c s p its = (rs, s', p') ->
      forall i r, nth_error rs i = Some r ->
      exists it, nth_error its i = Some it /\ r_op r = it_op it /\ r_bid r = it_bid it.
  Proof.
    intros h c. refine (run_induction h c _ _ _ _).
    - intros s p [|i] r H; discriminate.
    - intros s p it rest o s1 p1 _ _ _ [|[|i]] r H; try discriminate H. inversion H. now exists it.
    - intros s p it rest o s1 p1 rs s2 p2 _ _ _ IH [|i] r H; [inversion H; now exists it|exact (IH i r H)].
  Qed.

  Lemma run_shape : forall h c its s p rs s' p',
      run h c s p its = (rs, s', p') ->
      if c then length rs = length its
      else (forallb r_ok rs = true /\ length rs = length its) \/
           (exists pre r, rs = pre ++ [r] /\ forallb r_ok pre = true /\ r_ok r = false /\ (length rs <= length its)%nat).
  Proof.
    intros h [|]; refine (run_induction h _ _ _ _ _).
    - reflexivity.
    - discriminate.
    - simpl. intros. now f_equal.
    - left. auto.
    - intros s p it rest o s1 p1 _ Hok _. right. exists [], (mk_result it o). simpl. repeat split; auto. lia.
    - intros s p it rest o s1 p1 rs s2 p2 _ Hok _ IH. rewrite orb_false_r in Hok.
      destruct IH as [[Ha Hl]|[pre [r [-> [Hp [Hf Hl]]]]]].
      + left. simpl. rewrite Hok, Ha. split; [reflexivity|lia].
      + right. exists (mk_result it o :: pre), r. simpl. rewrite Hok, Hp. repeat split; auto.
        rewrite app_length in *. simpl in *. lia.
  Qed.

  (* every executed item is reported: the final state is the effect of exactly the items
     that have a result *)
  Lemma run_exec : forall h c its s p rs s' p',
      run h c s p its = (rs, s', p') -> exec h s p (firstn (length rs) its) = (s', p').
  Proof.
    intros h c. refine (run_induction h c _ _ _ _); simpl; intros; trivial.
    - now rewrite H.
    - now rewrite H.
  Qed.

  (* Inv is an invariant of the in-batch state (concretely: the session carries no unpublished
     change); a failing item met in such a state leaves state and placeholder as they were. *)
  Variable Inv : St -> Prop.
  Hypothesis inv_step : forall h s p it o s' p', Inv s -> handle h s p it = (o, s', p') -> Inv s'.
  Hypothesis handle_fail_frame : forall h s p it r s' p',
      Inv s -> handle h s p it = (Fail r, s', p') -> s' = s /\ p' = p.

  Lemma run_inv : forall h c its s p rs s' p', run h c s p its = (rs, s', p') -> Inv s -> Inv s'.
  Proof. intros h c. refine (run_induction h c _ _ _ _); eauto. Qed.

  Lemma run_all_failed_no_trace : forall h c its s p rs s' p',
      run h c s p its = (rs, s', p') -> Inv s -> forallb (fun r => negb (r_ok r)) rs = true -> s' = s /\ p' = p.
  Proof.
    intros h c. refine (run_induction h c _ _ _ _).
    - auto.
    - intros s p it rest [|r] s1 p1 Hh Hok _ Hinv _; [discriminate|eauto].
    - intros s p it rest [|r] s1 p1 rs s2 p2 Hh _ _ IH Hinv Hall; [discriminate|].
      destruct (handle_fail_frame _ _ _ _ _ _ _ Hinv Hh) as [-> ->]. auto.
  Qed.

  Lemma process_results : forall st h its rs st',
      process_request st h its = (inr rs, st') ->
      check_header h = None /\ check_ids its = None /\
      exists s' p', run h (continues h) (open_session st) None its = (rs, s', p') /\ st' = close_session s'.
  Proof.
    unfold Generic.process_request. intros st h its rs st' H.
    destruct (check_header h); [discriminate|].
    destruct (check_ids its); [discriminate|].
    destruct (run h (continues h) (open_session st) None its) as [[rs0 s'] p'] eqn:Hr.
    inversion H; subst. repeat split; eauto.
  Qed.

  Lemma process_error : forall st h its e st',
      process_request st h its = (inl e, st') ->
      st' = st /\ (check_header h = Some e \/ check_ids its = Some e).
  Proof.
    unfold Generic.process_request. intros st h its e st' H.
    destruct (check_header h); [inversion H; auto|].
    destruct (check_ids its); [inversion H; auto|].
    destruct (run h (continues h) (open_session st) None its) as [[rs s'] p']. discriminate.
  Qed.

  Lemma request_error_no_effect : forall st h its e st',
      process_request st h its = (inl e, st') -> st' = st.
  Proof. intros st h its e st' H. exact (proj1 (process_error _ _ _ _ _ H)). Qed.

  Lemma request_error_iff : forall st h its,
      (exists e, process_request st h its = (inl e, st)) <->
      (check_header h <> None \/ check_ids its <> None).
  Proof.
    intros st h its. split.
    - intros [e H]. destruct (process_error _ _ _ _ _ H) as [_ [E|E]]; [left|right]; congruence.
    - unfold Generic.process_request. destruct (check_header h); [eauto|]. destruct (check_ids its); [eauto|].
      intros [N|N]; now destruct N.
  Qed.

  Hypothesis inv_open : forall st, Inv (open_session st).

  (* any class of items that leave state and placeholder alone (failed items, items that
     only read) can be removed from the batch *)
  Section Kept.
    Variable keep : item I -> result -> bool.
    Notation kept := (kept I keep).
    Notation kept_results := (kept_results I keep).
    (* a dropped item left everything as it was ... *)
    Hypothesis dropped_frame : forall h s p it o s' p',
        Inv s -> handle h s p it = (o, s', p') -> keep it (mk_result it o) = false -> s' = s /\ p' = p.
    (* ... and only successful items are kept (so that Stop does not cut the reduced batch short) *)
    Hypothesis kept_ok : forall it o, keep it (mk_result it o) = true -> is_ok o = true.

    Lemma kept_nil_r : forall its, kept its [] = [].
    Proof. destruct its; reflexivity. Qed.

    Lemma run_kept : forall h c its s p rs s' p',
        run h c s p its = (rs, s', p') -> Inv s ->
        run h c s p (kept its rs) = (kept_results its rs, s', p').
    Proof.
      intros h c. refine (run_induction h c _ _ _ _).
      - reflexivity.
      - intros s p it rest o s1 p1 Hh Hok _ Hinv. simpl.
        destruct (keep it (mk_result it o)) eqn:Hk; [apply kept_ok in Hk; congruence|].
        destruct (dropped_frame _ _ _ _ _ _ _ Hinv Hh Hk) as [-> ->]. rewrite kept_nil_r. now destruct rest.
      - intros s p it rest o s1 p1 rs s2 p2 Hh _ _ IH Hinv. specialize (IH (inv_step _ _ _ _ _ _ _ Hinv Hh)).
        simpl. destruct (keep it (mk_result it o)) eqn:Hk.
        + simpl. now rewrite Hh, (kept_ok _ _ Hk), IH.
        + now destruct (dropped_frame _ _ _ _ _ _ _ Hinv Hh Hk) as [<- <-].
    Qed.

    Lemma existsb_kept : forall (f : item I -> bool) its rs,
        existsb f its = false -> existsb f (kept its rs) = false.
    Proof.
      induction its as [|it its IH]; intros rs H; [reflexivity|].
      simpl in H. apply orb_false_iff in H. destruct H as [H1 H2].
      destruct rs as [|r rs]; [reflexivity|]. simpl.
      destruct (keep it r); simpl; [rewrite H1|]; now apply IH.
    Qed.

    Lemma kept_length : forall its rs, (length (kept its rs) <= length its)%nat.
    Proof.
      induction its as [|it its IH]; intros [|r rs]; simpl; try lia.
      destruct (keep it r); simpl; specialize (IH rs); lia.
    Qed.

    Lemma check_ids_kept : forall its rs, check_ids its = None -> check_ids (kept its rs) = None.
    Proof.
      unfold Generic.check_ids. intros its rs H.
      destruct (1 <? Z.of_nat (length its)) eqn:Hn; simpl in H.
      - destruct (existsb _ its) eqn:He; [discriminate|].
        rewrite (existsb_kept _ _ rs He). now rewrite andb_false_r.
      - assert (Hl := kept_length its rs).
        assert (1 <? Z.of_nat (length (kept its rs)) = false) as -> by (apply Z.ltb_ge; apply Z.ltb_ge in Hn; lia).
        reflexivity.
    Qed.

    Theorem process_kept : forall st h its rs st',
        process_request st h its = (inr rs, st') ->
        process_request st h (kept its rs) = (inr (kept_results its rs), st').
    Proof.
      intros st h its rs st' H.
      destruct (process_results _ _ _ _ _ H) as [Hh [Hi [s' [p' [Hr ->]]]]].
      unfold Generic.process_request. rewrite Hh, (check_ids_kept _ rs Hi).
      now rewrite (run_kept _ _ _ _ _ _ _ _ Hr (inv_open st)).
    Qed.
  End Kept.

  (* the failed items are such a class: the batch without them gives the same answers for
     the remaining items, the same final state and the same placeholder *)
  Lemma succeeded_kept : forall its rs, succeeded its rs = kept I (fun _ r => r_ok r) its rs.
  Proof. induction its as [|it its IH]; intros [|r rs]; simpl; try reflexivity. now rewrite IH. Qed.

  Lemma filter_kept_results : forall h c its s p rs s' p',
      run h c s p its = (rs, s', p') -> filter r_ok rs = kept_results I (fun _ r => r_ok r) its rs.
  Proof.
    intros h c its s p rs s' p' H. apply run_length in H. revert rs H.
    induction its as [|it its IH]; intros [|r rs] L; simpl in *; try reflexivity; [lia|].
    rewrite IH by lia. reflexivity.
  Qed.

  Lemma failed_frame : forall h s p it o s' p',
      Inv s -> handle h s p it = (o, s', p') -> r_ok (mk_result it o) = false -> s' = s /\ p' = p.
  Proof. intros h s p it [|r] s' p' Hinv Hh Hk; [discriminate|eauto]. Qed.

  Lemma run_without_failed : forall h c its s p rs s' p',
      Inv s -> run h c s p its = (rs, s', p') ->
      run h c s p (succeeded its rs) = (filter r_ok rs, s', p').
  Proof.
    intros h c its s p rs s' p' Hinv H.
    rewrite succeeded_kept, (filter_kept_results _ _ _ _ _ _ _ _ H).
    now apply run_kept; [exact failed_frame| | |].
  Qed.

  Theorem process_without_failed : forall st h its rs st',
      process_request st h its = (inr rs, st') ->
      process_request st h (succeeded its rs) = (inr (filter r_ok rs), st').
  Proof.
    intros st h its rs st' H.
    destruct (process_results _ _ _ _ _ H) as [_ [_ [s' [p' [Hr _]]]]].
    rewrite succeeded_kept, (filter_kept_results _ _ _ _ _ _ _ _ Hr).
    now apply process_kept; [exact failed_frame| |].
  Qed.

  Hypothesis close_open : forall st, close_session (open_session st) = st.

  Theorem process_all_failed_no_trace : forall st h its rs st',
      process_request st h its = (inr rs, st') -> forallb (fun r => negb (r_ok r)) rs = true -> st' = st.
  Proof.
    intros st h its rs st' H Hall.
    destruct (process_results _ _ _ _ _ H) as [_ [_ [s' [p' [Hr ->]]]]].
    destruct (run_all_failed_no_trace _ _ _ _ _ _ _ _ Hr (inv_open st) Hall) as [-> _]. apply close_open.
  Qed.
End Proofs.

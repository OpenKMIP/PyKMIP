(* C15 - histories.  [run_ind] is the invariant principle for [run] by which props/C15.v lifts the one-call theorems.
   [index_semantics], [delete_by_value]: what ONE successful DeleteAttribute does to the positions of a collection
   (addressed by index in 1.x, by current value in 2.0); both are single-call facts, read off [step_success_object]. *)
From Coq Require Import ZArith List String Bool Lia Arith.
From PK Require Import AttrOps.Model AttrOps.ListLemmas AttrOps.Proofs AttrOps.Spec AttrOps.ExactProofs.
Import ListNotations.
Open Scope string_scope.
Open Scope Z_scope.

(* what holds of the store at the start and is kept by every event of a history holds at its end *)
Lemma run_ind : forall (P : store -> Prop) h s,
  P s -> (forall e s0, In e h -> P s0 -> P (run_event s0 e)) -> P (run s h).
Proof.
  intros P h. induction h as [|e h IH]; intros s H0 HS; [exact H0|].
  apply (IH (run_event s e)).
  - apply HS; [now left | exact H0].
  - intros e' s0 I. apply HS. now right.
Qed.

Definition attr_only (h : list event) : Prop :=
  forall e, In e h -> exists v user uid r, e = EvAttr v user uid r.

(* every call of the history is an attribute call and fails in the state it is executed in *)
Fixpoint all_failed (s : store) (h : list event) : Prop :=
  match h with
  | [] => True
  | EvAttr v user uid r :: t => (exists e, snd (step v user s uid r) = Failed e) /\ all_failed (fst (step v user s uid r)) t
  | EvOther _ :: _ => False
  end.

(* a successful 1.x DeleteAttribute with index i: instances below i keep their index, instances above move down by one;
   a later request addressing index j therefore reaches what used to be at j (j < i) or j + 1 (j >= i) *)
Theorem index_semantics : forall v user s u o n idx,
  is_v2 v = false -> find_obj u s = Some o ->
  snd (step v user s (Some u) (RDelete (mkDel (Some n) idx None None))) = Success ->
  exists f i o', mfield_of_name n = Some f /\ idx_nat idx = Some i /\ (i < List.length (mget f o))%nat /\
    find_obj u (fst (step v user s (Some u) (RDelete (mkDel (Some n) idx None None)))) = Some o' /\
    (forall j, nth_error (mget f o') j = if (j <? i)%nat then nth_error (mget f o) j else nth_error (mget f o) (S j)) /\
    S (List.length (mget f o')) = List.length (mget f o).
Proof.
  intros v user s u o n idx V F H.
  destruct (step_success_object _ _ _ _ _ _ F H) as [ta [o' [AD [M FO]]]].
  simpl in AD. rewrite V in AD. simpl in AD.
  destruct (mfield_of_name n) as [f|]; [|discriminate].
  destruct (idx_nat idx) as [i|]; [|discriminate]. inv AD.
  destruct M as [L [SH [LEN _]]]. exists f, i, o'. repeat split; assumption.
Qed.

(* the same for the value-addressed 2.0 form: the first instance equal to the current value is the one removed *)
Lemma delete_by_value : forall v user s u o n c,
  is_v2 v = true -> find_obj u s = Some o ->
  snd (step v user s (Some u) (RDelete (mkDel None None (Some (Some n, c)) None))) = Success ->
  exists f i o', mfield_of_name n = Some f /\ first_index c (mget f o) = Some i /\
    nth_error (mget f o) i = Some c /\ (forall j x, (j < i)%nat -> nth_error (mget f o) j = Some x -> x <> c) /\
    find_obj u (fst (step v user s (Some u) (RDelete (mkDel None None (Some (Some n, c)) None)))) = Some o' /\
    (forall j, nth_error (mget f o') j = if (j <? i)%nat then nth_error (mget f o) j else nth_error (mget f o) (S j)) /\
    rest_equal (Some f) o o'.
Proof.
  intros v user s u o n c V F H.
  destruct (step_success_object _ _ _ _ _ _ F H) as [ta [o' [AD [M FO]]]].
  simpl in AD. rewrite V in AD. simpl in AD.
  destruct (mfield_of_name n) as [f|]; [|discriminate].
  destruct (first_index c (mget f o)) as [i|] eqn:FI; [|discriminate]. inv AD.
  destruct (first_index_some _ _ _ FI) as [N1 N2]. exists f, i, o'.
  destruct M as [L [SH [LEN R]]].
  exact (conj eq_refl (conj FI (conj N1 (conj N2 (conj FO (conj SH R)))))).
Qed.

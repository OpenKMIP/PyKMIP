(* C15 - batches whose attribute operations may be addressed through the ID placeholder: every executed item is a
   step of its item, taken with the placeholder the items before it left; props/C15.v carries the one-call theorems
   along this.  Start from [trace_entry] (any item) and [attr_entry] (an attribute item is the call `step` at the
   store of [e_pre] and the resolved identifier). *)
From Coq Require Import ZArith List String Bool Lia Arith.
From PK Require Import AttrOps.Model AttrOps.Spec.
Import ListNotations.
Open Scope string_scope.
Open Scope Z_scope.
Open Scope list_scope.

Definition e_pre (e : entry) : bstate := fst (fst (fst e)).
Definition e_item (e : entry) : item := snd (fst (fst e)).
Definition e_post (e : entry) : bstate := snd (fst e).
Definition e_res (e : entry) : iresult := snd e.

(* the placeholder: written by creating items only *)
Lemma step_item_placeholder : forall v user st it, snd (fst (step_item v user st it)) = ph_update (snd st) it.
Proof. intros v user [s ph] [uid r|news u|f|]; reflexivity. Qed.

(* every trace entry is a step of its item, taken where the items in front of it left the placeholder: at the
   identifier issued by the last creating item among them (None when there is none: it starts as None in every request) *)
Lemma trace_entry : forall v user cont b st e, In e (trace v user cont st b) ->
  exists pre post, b = pre ++ e_item e :: post /\ snd (e_pre e) = last_created (snd st) pre /\
                   step_item v user (e_pre e) (e_item e) = (e_post e, e_res e).
Proof.
  induction b as [|it t IH]; intros st e H; [contradiction|].
  simpl in H. destruct H as [<-|H].
  - exists [], t. repeat split. apply surjective_pairing.
  - destruct (negb cont && failed_result (snd (step_item v user st it))); [contradiction|].
    destruct (IH _ _ H) as [pre [post [B [P S]]]]. exists (it :: pre), post. repeat split.
    + simpl. now rewrite B.
    + rewrite P. unfold last_created. simpl. now rewrite step_item_placeholder.
    + exact S.
Qed.

(* an executed attribute item acts on the object named by its identifier or else by the placeholder *)
Lemma attr_entry : forall v user cont b st e uid r, In e (trace v user cont st b) -> e_item e = IAttr uid r ->
  exists pre post, b = pre ++ IAttr uid r :: post /\
    e_post e = (fst (step v user (fst (e_pre e)) (resolve uid (last_created (snd st) pre)) r), snd (e_pre e)) /\
    e_res e = RAttr (snd (step v user (fst (e_pre e)) (resolve uid (last_created (snd st) pre)) r)).
Proof.
  intros v user cont b st e uid r H I. destruct (trace_entry _ _ _ _ _ _ H) as [pre [post [B [P S]]]].
  rewrite I in B, S. simpl in S. inversion S. exists pre, post. rewrite <- P. auto.
Qed.

(* without creating items in front the placeholder is still what the request started with *)
Lemma last_created_same : forall ph pre, (forall news u, ~ In (ICreating news u) pre) -> last_created ph pre = ph.
Proof.
  induction pre as [|it t IH] using rev_ind; intro N; [reflexivity|].
  unfold last_created. rewrite fold_left_app. fold (last_created ph t).
  rewrite IH by (intros news u X; apply (N news u), in_or_app; now left).
  destruct it; try reflexivity. destruct (N news u). apply in_or_app. right. now left.
Qed.

(* C15 - the list primitives of the model behave as Python lists do *)
From Coq Require Import ZArith List String Bool Lia Arith.
From PK Require Import AttrOps.Model.
Import ListNotations.

Lemma aval_eqb_spec : forall a b, reflect (a = b) (aval_eqb a b).
Proof.
  intros [x|x1 x2|x|x] [y|y1 y2|y|y]; simpl; try (constructor; discriminate).
  - destruct (String.eqb_spec x y); constructor; congruence.
  - destruct (String.eqb_spec x1 y1), (String.eqb_spec x2 y2); constructor; congruence.
  - destruct (Bool.eqb_spec x y); constructor; congruence.
  - destruct (Z.eqb_spec x y); constructor; congruence.
Qed.

Section Lists.
Context {A : Type}.

Lemma replace_nth_length : forall i (v : A) l, List.length (replace_nth i v l) = List.length l.
Proof. induction i; destruct l; simpl; auto. Qed.

Lemma replace_nth_same : forall i (v : A) l, (i < List.length l)%nat -> nth_error (replace_nth i v l) i = Some v.
Proof. induction i; destruct l; simpl; intros; try lia; auto. apply IHi. lia. Qed.

Lemma replace_nth_other : forall i j (v : A) l, j <> i -> nth_error (replace_nth i v l) j = nth_error l j.
Proof.
  induction i; destruct l; simpl; intros; auto.
  - destruct j; [congruence | reflexivity].
  - destruct j; simpl; auto.
Qed.

(* l.pop(i): positions below i keep their index, positions above shift down by one *)
Lemma remove_nth_spec : forall i (l : list A) j,
  nth_error (remove_nth i l) j = if (j <? i)%nat then nth_error l j else nth_error l (S j).
Proof.
  induction i; intros [|h t] [|j]; simpl; try reflexivity.
  - now destruct (S j <? S i)%nat.
  - apply IHi.
Qed.

Lemma remove_nth_length : forall i (l : list A), (i < List.length l)%nat -> S (List.length (remove_nth i l)) = List.length l.
Proof. induction i; destruct l; simpl; intros; try lia. rewrite IHi; lia. Qed.

Lemma remove_nth_0 : forall (l : list A), remove_nth 0 l = tl l.
Proof. destruct l; reflexivity. Qed.

(* deleting the first instance k times leaves the k-th suffix *)
Lemma iter_remove_front : forall k (l : list A), Nat.iter k (remove_nth 0) l = skipn k l.
Proof.
  induction k; intro l; [reflexivity|].
  etransitivity; [apply nat_rect_succ_r|]. etransitivity; [apply IHk|]. rewrite remove_nth_0.
  destruct l; [apply skipn_nil | reflexivity].
Qed.
End Lists.

Lemma first_index_some : forall c l i, first_index c l = Some i ->
  nth_error l i = Some c /\ (forall j x, (j < i)%nat -> nth_error l j = Some x -> x <> c).
Proof.
  induction l as [|h t IH]; simpl; intros i H; [discriminate|].
  destruct (aval_eqb_spec c h) as [<-|N].
  - inversion H. split; [reflexivity | intros; lia].
  - destruct (first_index c t) as [k|]; [|discriminate]. inversion H. destruct (IH k eq_refl) as [P Q].
    split; [exact P|]. intros [|j] x Hj Hx; simpl in Hx.
    + inversion Hx. congruence.
    + apply (Q j x); [lia | exact Hx].
Qed.

Lemma first_index_lt : forall c l i, first_index c l = Some i -> (i < List.length l)%nat.
Proof.
  intros c l i H. apply first_index_some in H. destruct H as [H _].
  apply nth_error_Some. congruence.
Qed.

Lemma first_index_none : forall c l, first_index c l = None -> ~ In c l.
Proof.
  induction l as [|h t IH]; simpl; intros H; [tauto|].
  destruct (aval_eqb_spec c h) as [|N]; [discriminate|].
  destruct (first_index c t); [discriminate|]. intros [K|K]; [congruence | now apply IH].
Qed.

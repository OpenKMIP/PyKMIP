(* C15 - what the handlers of Model.v read off the rule table and off attribute names, and the store primitives.
   [q_rule_in] enumerates the names with any table property; [mfield_of_name_ind], [sfield_of_name_inv] say which
   names reach which storage.  [written u o o' s s'] is what find_obj and replace_obj together do to the store: start
   from [replace_obj_written] and the [written_*] lemmas. *)
From Coq Require Import ZArith List String Bool Lia.
From PKGen Require Import AttrRuleTable.
From PK Require Import AttrOps.Model.
Import ListNotations.
Open Scope string_scope.
Open Scope Z_scope.

Ltac inv H := inversion H; subst; clear H.

(* the regenerated table protects the nine attributes: these eight names, the owner having none *)
Definition protected_names : list string :=
  ["Unique Identifier"; "Object Type"; "State"; "Operation Policy Name"; "Cryptographic Usage Mask";
   "Cryptographic Algorithm"; "Cryptographic Length"; "Initial Date"].

Definition rule_protects (n : string) : bool :=
  match find_rule n with
  | Some r => negb (ar_modifiable_by_client r) && negb (ar_deletable_by_client r)
  | None => false
  end.

Lemma table_protects : forallb rule_protects protected_names = true.
Proof. vm_compute. reflexivity. Qed.

Lemma protected_rule : forall n, In n protected_names ->
  q_modifiable n = false /\ q_deletable n = false.
Proof.
  intros n H. generalize (proj1 (forallb_forall _ _) table_protects n H).
  unfold rule_protects, q_modifiable, q_deletable, q_rule. destruct (find_rule n) as [r|]; [|discriminate].
  now destruct (ar_modifiable_by_client r), (ar_deletable_by_client r).
Qed.

(* a query that answers true does so for the name of a row it holds of: the names with a given property are read off
   the table by evaluating the right-hand side *)
Lemma q_rule_in : forall f n, q_rule f n = true -> In n (map ar_name (filter f attr_rule_table)).
Proof.
  intros f n. unfold q_rule, find_rule.
  destruct (find _ attr_rule_table) as [r|] eqn:F; [|discriminate].
  apply find_some in F. destruct F as [I E]. apply String.eqb_eq in E. subst n.
  intro Q. apply in_map, filter_In. auto.
Qed.

(* to show something of every name of a stored collection, show it of the three *)
Lemma mfield_of_name_ind : forall P : string -> mfield -> Prop,
  P "Name" FNames -> P "Object Group" FGroups -> P "Application Specific Information" FAsi ->
  forall n f, mfield_of_name n = Some f -> P n f.
Proof.
  intros P. unfold mfield_of_name.
  (* which names they are plays no part, and case analysis over a goal full of string literals is dear *)
  generalize "Name" "Object Group" "Application Specific Information". intros a b c Ha Hb Hc n f.
  destruct (String.eqb_spec n a) as [->|_]; [intro H; now inv H|].
  destruct (String.eqb_spec n b) as [->|_]; [intro H; now inv H|].
  destruct (String.eqb_spec n c) as [->|_]; [intro H; now inv H|].
  discriminate.
Qed.

Lemma existsb_eqb_In : forall n l, existsb (String.eqb n) l = true -> In n l.
Proof.
  intros n l H. apply existsb_exists in H. destruct H as [x [I E]]. apply String.eqb_eq in E. now subst.
Qed.

(* of the five columns the single-valued setter can write, four hold protected attributes *)
Lemma sfield_of_name_inv : forall n f, sfield_of_name n = Some f ->
  (f = SSens /\ n = "Sensitive") \/ In n protected_names.
Proof.
  intros n f. unfold sfield_of_name.
  repeat match goal with |- context [String.eqb n ?s] => destruct (String.eqb_spec n s) as [->|_] end;
    intro H; inv H.
  (* one goal per column; that a literal name is among protected_names is shown by evaluating existsb, a
     disjunction of equalities between string literals being dear to check *)
  1-4: right; apply existsb_eqb_In; reflexivity.
  left. split; reflexivity.
Qed.

Lemma mset_protected : forall f l o, protected (mset f l o) = protected o.
Proof. destruct f; reflexivity. Qed.

Lemma mget_mset_same : forall f l o, mget f (mset f l o) = l.
Proof. destruct f; reflexivity. Qed.

Lemma mget_mset_other : forall f g l o, g <> f -> mget g (mset f l o) = mget g o.
Proof. destruct f, g; intros; try congruence; reflexivity. Qed.

Lemma protected_uid : forall o o', protected o' = protected o -> o_uid o' = o_uid o.
Proof. unfold protected. intros o o' H. now inversion H. Qed.

Lemma find_obj_uid : forall u s o, find_obj u s = Some o -> o_uid o = u.
Proof.
  intros u s o H. unfold find_obj in H. apply find_some in H. destruct H as [_ H]. now apply Z.eqb_eq in H.
Qed.

(* [s'] is [s] with [o], its first object of identifier [u], written back as [o']: what find_obj and replace_obj
   together do to the store *)
Inductive written (u : Z) (o o' : obj) : store -> store -> Prop :=
| written_here : forall t, o_uid o = u -> written u o o' (o :: t) (o' :: t)
| written_later : forall x t t', o_uid x <> u -> written u o o' t t' -> written u o o' (x :: t) (x :: t').

Lemma replace_obj_written : forall u o o' s, find_obj u s = Some o -> written u o o' s (replace_obj u o' s).
Proof.
  induction s as [|x t IH]; [discriminate|]. unfold find_obj. simpl.
  destruct (Z.eqb_spec (o_uid x) u) as [E|E]; intro F.
  - inv F. now constructor.
  - constructor; [exact E | exact (IH F)].
Qed.

Lemma written_protected : forall u o o' s s', written u o o' s s' -> protected o' = protected o ->
  map protected s' = map protected s.
Proof. induction 1 as [t U|x t t' N W IH]; intro P; simpl; [now rewrite P | now rewrite IH]. Qed.

Lemma written_other : forall u o o' s s', written u o o' s s' ->
  forall k x, nth_error s k = Some x -> o_uid x <> u -> nth_error s' k = Some x.
Proof.
  induction 1 as [t U|y t t' N W IH]; intros [|k] x H Nx; simpl in *; auto.
  inv H. contradiction.
Qed.

Lemma written_find : forall u o o' s s', written u o o' s s' -> o_uid o' = u -> find_obj u s' = Some o'.
Proof.
  induction 1 as [t U|x t t' N W IH]; intro U'; unfold find_obj; simpl.
  - now rewrite U', Z.eqb_refl.
  - apply Z.eqb_neq in N. rewrite N. now apply IH.
Qed.

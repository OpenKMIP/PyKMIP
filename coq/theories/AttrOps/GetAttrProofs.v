(* C15 - "which GetAttributes then reflects": the number of instances GetAttributes reports for the client-changeable
   attributes is the length of the stored collection, so the exact change of a successful call is what a client sees
   ([reported_count] for any rule in force, [reported_count_multi] for the three stored collections). *)
From Coq Require Import ZArith List String Bool Lia Arith.
From PKGen Require Import AttrRuleTable.
From PK Require Import AttrOps.Model AttrOps.Proofs AttrOps.Spec AttrOps.ExactProofs.
Import ListNotations.
Open Scope string_scope.
Open Scope Z_scope.

(* the object types the server stores *)
Definition stored_type (t : Z) : bool := existsb (Z.eqb t) [1; 2; 3; 4; 5; 7; 8].

(* what GetAttributes reports for a name whose rule is in force for the version and covers every object type of a
   list the object's type is in *)
Lemma reported_count : forall v o n r l,
  find_rule n = Some r -> ver_ge v (ar_version_added r) = true -> ar_version_deprecated r = None ->
  existsb (Z.eqb (o_type o)) l = true ->
  forallb (fun t => existsb (Z.eqb t) (ar_object_types r)) l = true ->
  existing_count v o n =
  match get_value o n with GNone => O | GList k => if ar_multivalued r then k else 1%nat | GOne => 1%nat end.
Proof.
  intros v o n r l R V D T A. apply existsb_exists in T. destruct T as [t [I E]]. apply Z.eqb_eq in E.
  rewrite forallb_forall in A. unfold existing_count, q_deprecated. now rewrite R, V, D, E, (A t I).
Qed.

Lemma reported_count_multi : forall v o, ver_ge v (1, 0) = true -> stored_type (o_type o) = true ->
  forall n f, mfield_of_name n = Some f -> existing_count v o n = List.length (mget f o).
Proof.
  intros v o V T. apply mfield_of_name_ind;
    match goal with |- existing_count _ _ ?s = _ => exact (reported_count v o s _ _ eq_refl V eq_refl T eq_refl) end.
Qed.

Lemma reported_count_sensitive : forall v o,
  ver_ge v (1, 4) = true -> stored_type (o_type o) = true -> existing_count v o "Sensitive" = 1%nat.
Proof. intros v o V T. exact (reported_count v o "Sensitive" _ _ eq_refl V eq_refl T eq_refl). Qed.

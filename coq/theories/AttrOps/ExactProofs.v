(* C15 - a successful call changes exactly the addressed instance to exactly the requested value.
   [decide_addr]: an effect the handlers return serves what Spec.v says the request addresses; [step_cases] carries
   that to the store; protection, frame and exactness of one call are read off it in props/C15.v.
   wit_key, wit_req (at the end) are the inputs of props/C15.v's witness for a delete of the empty name. *)
From Coq Require Import ZArith List String Bool Lia Arith.
From PK Require Import AttrOps.Model AttrOps.ListLemmas AttrOps.Proofs AttrOps.Spec.
Import ListNotations.
Open Scope string_scope.
Open Scope Z_scope.

(* which effect on the object serves which addressed target *)
Inductive eff_for (o : obj) : effect -> target * action -> Prop :=
| EF_replace : forall f i v, (i < List.length (mget f o))%nat -> eff_for o (EReplace f i v) (TInstance f i, AReplace v)
| EF_remove : forall f i, (i < List.length (mget f o))%nat -> eff_for o (ERemove f i) (TInstance f i, ARemove)
| EF_clear : forall f, eff_for o (EClear f) (TAll f, ARemove)
| EF_sens : forall b, eff_for o (ESet SSens (VBool b)) (TSensitive, AReplace (VBool b))
| EF_sens_same : forall b, o_sensitive o = b -> eff_for o ENoChange (TSensitive, AReplace (VBool b)).

(* the parts of [rest_equal], and that writing one collection leaves the rest *)
Lemma rest_protected : forall f o o', rest_equal f o o' -> protected o' = protected o.
Proof. intros f o o' R. apply R. Qed.
Lemma rest_other : forall f o o', rest_equal f o o' -> forall g, Some g <> f -> mget g o' = mget g o.
Proof. intros f o o' R. apply R. Qed.
Lemma rest_flag : forall f o o', rest_equal f o o' -> f <> None -> o_sensitive o' = o_sensitive o.
Proof. intros f o o' R. apply R. Qed.
Lemma mset_rest : forall f l o, rest_equal (Some f) o (mset f l o).
Proof.
  intros. unfold rest_equal. repeat split.
  - apply mset_protected.
  - destruct f; reflexivity.
  - intros g H. apply mget_mset_other. congruence.
  - intros _. destruct f; reflexivity.
Qed.

Lemma eff_for_meets : forall o e ta, eff_for o e ta -> meets ta o (apply_effect e o).
Proof.
  intros o e ta H. destruct H as [f i v L|f i L|f|b|b S]; simpl; rewrite ?mget_mset_same.
  - exact (conj L (conj (replace_nth_same _ _ _ L) (conj (replace_nth_length _ _ _)
            (conj (fun j N => replace_nth_other _ _ _ _ N) (mset_rest _ _ _))))).
  - exact (conj L (conj (remove_nth_spec _ _) (conj (remove_nth_length _ _ L) (mset_rest _ _ _)))).
  - exact (conj eq_refl (mset_rest _ _ _)).
  - repeat split; easy.
  - repeat split; easy.
Qed.

(* whatever a request addresses, the protected attributes lie outside it *)
Lemma meets_protected : forall ta o o', meets ta o o' -> protected o' = protected o.
Proof. intros [[f i|f|] [[]|]] o o'; simpl; unfold rest_equal; tauto. Qed.

Lemma mfield_not_sens : forall n f, mfield_of_name n = Some f -> String.eqb n "Sensitive" = false.
Proof. apply mfield_of_name_ind; reflexivity. Qed.

(* the single-valued setter is only ever entered for a name the table marks modifiable; the table marks none of the
   protected names modifiable, so the only column it can write is [sensitive] *)
Lemma set_single_addr : forall o n v e, negb (q_modifiable n) = false -> set_single o n v = Ok e ->
  mfield_of_name n = None /\ exists ta, sens_target n v = Some ta /\ eff_for o e ta.
Proof.
  intros o n v e M H. apply negb_false_iff in M. unfold set_single in H.
  destruct (q_multivalued n); try discriminate.
  destruct (sfield_of_name n) eqn:S.
  - apply sfield_of_name_inv in S. destruct S as [[-> ->]|P].
    + split; [reflexivity|]. destruct v; try discriminate. eexists. split; [reflexivity|].
      destruct (o_sensitive o) eqn:OS; [destruct b; [|discriminate]|]; inv H; now constructor.
    + apply protected_rule in P. destruct P as [P _]. congruence.
  - destruct v; discriminate.
Qed.

Lemma opt_eq_int_some : forall x c i, opt_eq_int x c = Ok (Some i) -> True.
Proof. trivial. Qed.

(* the three stored collections are what is read and searched under their names *)
Lemma get_value_mfield : forall o n f, mfield_of_name n = Some f -> get_value o n = GList (List.length (mget f o)).
Proof. intro o. apply mfield_of_name_ind; reflexivity. Qed.

Lemma index_of_mfield : forall o c i n f, mfield_of_name n = Some f -> index_of o n c = Ok (Some i) ->
  first_index c (mget f o) = Some i.
Proof.
  intros o c i.
  apply (mfield_of_name_ind (fun n f => index_of o n c = Ok (Some i) -> first_index c (mget f o) = Some i));
    unfold index_of; simpl; destruct c; try discriminate; intro H; now inv H.
Qed.

(* the other multi-valued names of the table are not stored: nothing to read, nothing to find *)
Lemma multivalued_unstored : forall o n, q_multivalued n = true -> mfield_of_name n = None ->
  get_value o n = GNone /\ forall c, index_of o n c = Ok None.
Proof.
  (* M becomes the literal list of the multi-valued names of the table; a stored one contradicts F, for the others
     both sides evaluate *)
  intros o n M F. apply q_rule_in in M. vm_compute in M.
  repeat destruct M as [<-|M]; try discriminate F; try contradiction M; split; reflexivity.
Qed.

Lemma set_by_index_eff : forall o n v i e f, mfield_of_name n = Some f -> (i < List.length (mget f o))%nat ->
  set_by_index n v i = Ok e -> eff_for o e (TInstance f i, AReplace v).
Proof.
  intros o n v i e f F L H. unfold set_by_index in H. rewrite F in H.
  destruct f; destruct v; try discriminate; inv H; constructor; assumption.
Qed.

Lemma idx_nat_default : forall idx, let i := match idx with Some i => i | None => 0 end in
  0 <= i -> idx_nat idx = Some (Z.to_nat i).
Proof.
  intros [i|] j P; [|reflexivity]. unfold idx_nat. destruct (i <? 0) eqn:N; [apply Z.ltb_lt in N; lia | reflexivity].
Qed.

(* deletion: by current value the first equal instance, by index that instance, with neither all of them *)
Lemma delete_from_eff : forall o n idx val e, delete_from o n idx val = Ok e ->
  exists f, mfield_of_name n = Some f /\
    match val, idx with
    | Some c, _ => exists i, first_index c (mget f o) = Some i /\ eff_for o e (TInstance f i, ARemove)
    | None, Some i => 0 <= i /\ eff_for o e (TInstance f (Z.to_nat i), ARemove)
    | None, None => eff_for o e (TAll f, ARemove)
    end.
Proof.
  intros o n idx val e. unfold delete_from.
  destruct (negb (q_applicable n (o_type o))); [discriminate|].
  destruct (negb (q_deletable n)); [discriminate|].
  destruct (q_multivalued n); [|discriminate].
  destruct (mfield_of_name n) as [f|]; [|discriminate].
  cbv zeta. intro H. exists f. split; [reflexivity|]. destruct val as [c|]; [|destruct idx as [i|]].
  - assert (B : match first_index c (mget f o) with Some i => Ok (ERemove f i) | None => Err RItemNotFound end = Ok e)
      by (destruct f, c; try discriminate H; exact H).
    destruct (first_index c (mget f o)) as [i|] eqn:I; inv B.
    exists i. split; [reflexivity|]. constructor. eapply first_index_lt; eauto.
  - destruct (0 <=? i) eqn:A; [|discriminate]. destruct (i <? _) eqn:B; inv H.
    apply Z.leb_le in A. apply Z.ltb_lt in B. split; [assumption|]. constructor. lia.
  - inv H. constructor.
Qed.

Lemma decide_delete_addr : forall v o p e, decide_delete v o p = Ok e ->
  exists ta, addressed v o (RDelete p) = Some ta /\ eff_for o e ta.
Proof.
  intros v o p e H. unfold decide_delete in H. cbv zeta in H. simpl. destruct (is_v2 v).
  - destruct (d_current p) as [[[n|] c]|].
    + apply delete_from_eff in H. destruct H as [f [F [i [I E]]]]. rewrite F, I. eexists; split; [reflexivity | exact E].
    + discriminate.
    + destruct (d_ref p) as [n|]; [|discriminate].
      apply delete_from_eff in H. destruct H as [f [F E]]. rewrite F. eexists; split; [reflexivity | exact E].
  - destruct (d_name p) as [n|]; [|discriminate].
    destruct (String.eqb n ""); [discriminate|].
    match type of H with (if ?c then _ else _) = _ => destruct c; [discriminate|] end.
    apply delete_from_eff in H. destruct H as [f [F [P E]]]. rewrite F.
    destruct (d_index p) as [i|]; [rewrite (idx_nat_default (Some i) P) | ]; eexists; split; try reflexivity; exact E.
Qed.

Lemma decide_modify_addr : forall v o p e, decide_modify v o p = Ok e ->
  exists ta, addressed v o (RModify p) = Some ta /\ eff_for o e ta.
Proof.
  intros v o p e H. unfold decide_modify in H. cbv zeta in H. simpl. destruct (is_v2 v).
  - destruct (m_new p) as [[nn nv]|]; try discriminate.
    destruct (kind_mismatch (m_current p) nn); try discriminate.
    destruct nn as [n|]; try discriminate.
    destruct (negb (q_modifiable n)) eqn:M; try discriminate.
    destruct (q_multivalued n) eqn:MV.
    + (* 2.0, multi-valued: a stored collection, or else [multivalued_unstored] finds nothing to index *)
      destruct (cur_val p) as [c|]; [|discriminate].
      destruct (index_of o n c) as [[i|]|] eqn:IO; try discriminate.
      destruct (mfield_of_name n) as [f|] eqn:F.
      * apply (index_of_mfield _ _ _ _ _ F) in IO. rewrite IO. eexists; split; [reflexivity|].
        eapply set_by_index_eff; eauto using first_index_lt.
      * rewrite (proj2 (multivalued_unstored o n MV F)) in IO. discriminate.
    + (* 2.0, single-valued *)
      assert (S : set_single o n nv = Ok e).
      { destruct (cur_val p) as [c|].
        - destruct (index_of o n c) as [[i|]|]; try discriminate. assumption.
        - destruct (get_value o n); try discriminate; assumption. }
      destruct (set_single_addr _ _ _ _ M S) as [-> X]. exact X.
  - destruct (m_attr p) as [[[n idx] nv]|]; [|discriminate].
    destruct (negb (q_modifiable n)) eqn:M; try discriminate.
    destruct (q_multivalued n) eqn:MV.
    + (* 1.x, multi-valued: likewise, with nothing to read in the unstored case *)
      destruct (mfield_of_name n) as [f|] eqn:F.
      * rewrite (get_value_mfield _ _ _ F) in H.
        match type of H with (if ?c then _ else _) = _ => destruct c eqn:RG; [|discriminate] end.
        apply andb_true_iff in RG. destruct RG as [NEG LT]. apply Z.leb_le in NEG. apply Z.ltb_lt in LT.
        rewrite (idx_nat_default idx NEG). eexists; split; [reflexivity|]. eapply set_by_index_eff; eauto. lia.
      * rewrite (proj1 (multivalued_unstored o n MV F)) in H. discriminate.
    + (* 1.x, single-valued *)
      destruct idx; [discriminate|].
      match type of H with (if ?c then _ else _) = _ => destruct c; [discriminate|] end.
      destruct (set_single_addr _ _ _ _ M H) as [-> X]. exact X.
Qed.

Lemma decide_set_addr : forall v o p e, decide_set v o p = Ok e ->
  exists ta, addressed v o (RSet p) = Some ta /\ eff_for o e ta.
Proof.
  intros v o p e H. unfold decide_set in H. simpl.
  destruct p as [[[n|] nv]|]; try discriminate.
  destruct (q_multivalued n); try discriminate.
  destruct (negb (q_modifiable n)) eqn:M; try discriminate.
  destruct (negb (q_applicable n (o_type o))); try discriminate.
  exact (proj2 (set_single_addr _ _ _ _ M H)).
Qed.

Lemma decide_addr : forall v o r e, decide v o r = Ok e ->
  exists ta, addressed v o r = Some ta /\ eff_for o e ta.
Proof.
  intros v o [p|p|p] e H; simpl in H; eauto using decide_delete_addr, decide_modify_addr, decide_set_addr.
Qed.

(* One call: either the request is refused and the store is as it was, or the object found by identifier, accessible
   to the caller, is written back changed as [meets] demands of what the request addresses.  Everything the property
   says of a single call is read off this. *)
Inductive step_spec (v : version) (user : string) (s : store) (uid : option Z) (r : areq) : store * outcome -> Prop :=
| step_refused : forall e, step_spec v user s uid r (s, Failed e)
| step_done : forall u o o' ta s', uid = Some u -> find_obj u s = Some o -> allowed user o = true ->
    addressed v o r = Some ta -> meets ta o o' -> written u o o' s s' -> step_spec v user s uid r (s', Success).

Lemma step_cases : forall v user s uid r, step_spec v user s uid r (step v user s uid r).
Proof.
  intros v user s uid r. unfold step.
  destruct (is_set r && negb (is_v2 v)); [constructor|].
  destruct uid as [u|]; [|constructor].
  destruct (find_obj u s) as [o|] eqn:F; [|constructor].
  destruct (negb (allowed user o)) eqn:A; [constructor|]. apply negb_false_iff in A.
  destruct (decide v o r) as [e|] eqn:D; [|constructor].
  destruct (decide_addr _ _ _ _ D) as [ta [AD E]]. econstructor; eauto using eff_for_meets, replace_obj_written.
Qed.

Lemma written_only : forall u o o' s s', written u o o' s s' -> only_object_changed u o o' s s'.
Proof.
  induction 1 as [t U|y t t' N W [k [A [B [C [D G]]]]]].
  - exists O. simpl. repeat split; auto.
    + intros [|j] Hj; [congruence|reflexivity].
    + intros j x Hj. lia.
  - exists (S k). simpl. repeat split; auto.
    + intros [|j] Hj; [reflexivity|]. simpl. apply D. congruence.
    + intros [|j] z Hj Hz; simpl in Hz.
      * inv Hz. exact N.
      * apply (G j z); [lia|assumption].
Qed.

(* objects other than the one the identifier names stay where and what they are *)
Lemma step_other_object : forall v user s uid r k x, nth_error s k = Some x -> uid <> Some (o_uid x) ->
  nth_error (fst (step v user s uid r)) k = Some x.
Proof.
  intros v user s uid r k x H N. destruct (step_cases v user s uid r) as [e|u o o' ta s' U F A AD M W]; [assumption|].
  eapply written_other; eauto. congruence.
Qed.

(* a successful call on an identifier that is present: the object is there afterwards, changed as demanded *)
Lemma step_success_object : forall v user s u o r,
  find_obj u s = Some o -> snd (step v user s (Some u) r) = Success ->
  exists ta o', addressed v o r = Some ta /\ meets ta o o' /\
    find_obj u (fst (step v user s (Some u) r)) = Some o'.
Proof.
  intros v user s u o r F. destruct (step_cases v user s (Some u) r) as [e|u' o0 o' ta s' U F' A AD M W]; [discriminate|].
  inv U. rewrite F in F'. inv F'. intros _. exists ta, o'. repeat split; auto.
  eapply written_find; eauto.
  rewrite (protected_uid _ _ (meets_protected _ _ _ M)). eapply find_obj_uid; eauto.
Qed.

(* a key with two names, and a 2.0 DeleteAttribute by the current value Name "", the empty text
   (props/C15.v, empty_name_delete_regression) *)
Definition wit_key : obj :=
  mkObj 1 2 (Some 1) "alice" "default" (Some 12) (Some 3) (Some 128) 1600000000 None
        [VText "a"; VText "b"] [VText "g0"] [] false.
Definition wit_req : areq := RDelete (mkDel None None (Some (Some "Name", VText "")) None).

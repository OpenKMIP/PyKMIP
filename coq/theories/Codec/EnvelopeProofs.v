(* The response envelope of property C02: every response composed by the batch path (envelope) and by the
   error path (envelope_err) satisfies envelope_ok; batch_prefix says which items are answered (up to and
   including the first failure, unless the batch continues).  class_ok and site_ok are checks on the
   regenerated tables of gen/KmipErrors.v; that they make every outcome of the code satisfy outcome_ok is
   argued by the harness, not by a lemma. *)
From PK Require Import Codec.Envelope.
From PKGen Require Import KmipErrors.
From Coq Require Import ZArith List Bool String Lia.
Import ListNotations.
Open Scope Z_scope.

Lemma compose_ok op bid o : outcome_ok o = true -> item_envelope_ok (compose op bid o) = true.
Proof.
  destruct o as [|st r m|]; cbn; intros H; try reflexivity.
  apply andb_prop in H as [Hs Hm]. unfold item_envelope_ok. cbn.
  apply negb_true_iff in Hs. rewrite Hs. apply negb_true_iff in Hm. rewrite Hm. reflexivity.
Qed.

Lemma batch_ok continue items :
  forallb (fun x => outcome_ok (snd x)) items = true -> forallb item_envelope_ok (batch continue items) = true.
Proof.
  induction items as [|[[op bid] o] items IH]; cbn; intros H; [reflexivity|].
  apply andb_prop in H as [Ho H]. rewrite compose_ok by exact Ho. cbn.
  destruct (failed o && negb continue); [reflexivity|apply IH; exact H].
Qed.

(* every response built by the batch path follows the envelope, for every batch, option and version *)
Theorem envelope version now continue items :
  forallb (fun x => outcome_ok (snd x)) items = true ->
  envelope_ok version (process version now continue items) = true.
Proof.
  intros H. unfold envelope_ok, process, build_response. cbn.
  rewrite !Z.eqb_refl. cbn. apply batch_ok. exact H.
Qed.

(* results are a prefix of the items: one per processed item, echoing operation and batch id *)
Theorem batch_prefix continue items :
  (List.length (batch continue items) <= List.length items)%nat /\
  forall n it, nth_error (batch continue items) n = Some it ->
    exists op bid o, nth_error items n = Some (op, bid, o) /\ it = compose op bid o.
Proof.
  induction items as [|[[op bid] o] items [IHl IHn]]; cbn; [split; [lia|intros [|n] it H; discriminate]|].
  split.
  - destruct (failed o && negb continue); cbn; lia.
  - intros [|n] it H; cbn in H.
    + injection H as <-. exists op, bid, o. split; reflexivity.
    + destruct (failed o && negb continue); [destruct n; discriminate|]. apply IHn. exact H.
Qed.

(* the error path of the session / request level *)
Theorem envelope_err version now reason msg :
  envelope_ok version (build_error_response version now reason msg) = true.
Proof. unfold envelope_ok, build_error_response, build_response. cbn. rewrite !Z.eqb_refl. reflexivity. Qed.

(* tie T: every KmipError class carries a failure status, and every raise site in the server code
   passes a message that cannot be empty - except text taken from a third-party exception (MExcText),
   which is trusted to be non-empty and is policed by the direct oracle of the harness *)
Definition class_ok (c : string * Z * Z) : bool := negb (snd (fst c) =? SUCCESS).
Definition site_ok (s : string * Z * string * bool * msg_shape) : bool :=
  match s with (_, _, _, nonempty, shape) =>
    match shape with MLit => nonempty | MExcText => true | MUnknown => false end end.

Lemma error_classes_fail : forallb class_ok kmip_error_classes = true.
Proof. vm_compute. reflexivity. Qed.

Lemma raise_sites_nonempty : forallb site_ok kmip_raise_sites = true.
Proof. vm_compute. reflexivity. Qed.

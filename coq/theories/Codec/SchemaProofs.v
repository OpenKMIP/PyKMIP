(* The schema interpreter of Schema.v, for every environment accepted by env_ok, every version, depth and value.
   Two walks.  Along the writer, wr_emits: what wr writes starts with its tag and type, is well-formed TTLV (from the
   writer schemas alone: wr_wf_w) and is read back by rd with the rest of the stream untouched.  Along the reader,
   rd_sound: whatever rd accepts is a well-formed value that wr can write; rd accepts more than wr writes (unchecked
   Boolean length, BigInteger padding, bytes left in a sub-stream), so the second walk does not follow from the first.
   Fields and item lists are treated over an element writer wrf, reader rdf and test wff given as variables.  What
   they ask of an element, hence of every kind, is: (a) its encoding starts with be_enc 3 (etag tag k x) ++ [tyc x],
   (b) with etag among ktags, (c) is a wf_item, (d) is read back by rdf (the four parts of wr_emits), and (e) what rdf
   accepts re-encodes within twice the bytes consumed and shows its type byte (SoundAt; rd_sound).  The kinds are
   told apart only in wr_emits, rd_sound, kind_eqb_prop and the lemmas on any-attribute items. *)
From PK Require Import Base.Bytes Base.BytesProofs Base.Prim Base.PrimProofs Codec.Schema.
From PK Require Import Base.WfSpec Base.SpecProofs.
Open Scope Z_scope.

Lemma ptype_eqb_eq a b : ptype_eqb a b = true <-> a = b.
Proof.
  split; [|intros ->; apply Z.eqb_refl]. unfold ptype_eqb. intros H%Z.eqb_eq.
  destruct a, b; (reflexivity || discriminate H).
Qed.

Lemma opt_concat_cons_some o l bs :
  opt_concat (o :: l) = Some bs -> exists b r, o = Some b /\ opt_concat l = Some r /\ bs = b ++ r.
Proof.
  cbn. destruct o as [b|]; [|discriminate]. destruct (opt_concat l) as [r|]; [|discriminate].
  intros [= <-]. eauto.
Qed.

Lemma enc_field_some wrf it fs b :
  enc_field wrf (it, fs) = Some b <->
  mult_ok (i_mult it) (List.length fs) = true /\ opt_concat (map (wrf (i_tag it) (i_kind it)) fs) = Some b.
Proof.
  unfold enc_field. cbn [fst snd]. destruct (mult_ok _ _); [split; [auto|intros [_ H]; exact H]|].
  split; [discriminate|intros [H _]; discriminate].
Qed.

Lemma memb_false_notin t l : memb t l = false -> ~ In t l.
Proof.
  unfold memb. intros H Hin. rewrite (proj2 (existsb_exists _ _)) in H; [discriminate|].
  exists t. split; [exact Hin|apply Z.eqb_refl].
Qed.

Lemma is_tag_next_nil t : is_tag_next t [] = false.
Proof. reflexivity. Qed.

Lemma with_hdr_starts tag ty len body bs :
  with_hdr tag ty len body = Some bs -> exists r, bs = be_enc 3 tag ++ ty :: r.
Proof. intros (h & [-> _]%hdr_some & ->)%with_hdr_some. rewrite <- app_assoc. cbn [app]. eauto. Qed.

Lemma enc_prim_starts tag p bs : enc_prim tag p = Some bs ->
  exists r, bs = be_enc 3 tag ++ type_code (ptype_of p) :: r.
Proof. rewrite enc_prim_eq. destruct (enc_ok p); [apply with_hdr_starts|discriminate]. Qed.

(* the fourth byte of the stream, the TTLV type, is ty: what a dispatch on the next type looks at *)
Definition type_byte_is (bs : bytes) (ty : Z) : Prop :=
  exists t4 r4, take_exact 4 bs = Some (t4, r4) /\ nth 3 t4 0 = ty.

Lemma starts_type_byte tag ty r : type_byte_is (be_enc 3 tag ++ ty :: r) ty.
Proof.
  exists (be_enc 3 tag ++ [ty]), r. split.
  - replace (be_enc 3 tag ++ ty :: r) with ((be_enc 3 tag ++ [ty]) ++ r) by (rewrite <- app_assoc; reflexivity).
    apply take_exact_app_len. rewrite zlen_app, zlen_be_enc. reflexivity.
  - rewrite app_nth2; rewrite be_enc_length; [reflexivity|lia].
Qed.

Lemma dec_hdr_type_byte tag ty bs len r : dec_hdr tag ty bs = Some (len, r) -> type_byte_is bs ty.
Proof.
  intros (t & y & l & -> & L1 & L2 & _ & _ & Ey & _)%dec_hdr_some.
  destruct y as [|b [|b' y']]; unfold zlen in L1, L2; cbn in L2; try lia.
  exists (t ++ [b]), (l ++ r). split.
  - rewrite app_assoc. apply take_exact_app_len. rewrite zlen_app. unfold zlen. cbn. lia.
  - rewrite app_nth2 by lia. replace (3 - List.length t)%nat with 0%nat by lia. exact Ey.
Qed.

Lemma tag_ok_any tag k : tag_ok tag = true -> tag_ok' tag k = true.
Proof. unfold tag_ok'. intros ->. apply orb_true_r. Qed.

Lemma etag_plain tag k x : is_tagged k = false -> etag tag k x = tag.
Proof. destruct k; (reflexivity || discriminate). Qed.

Lemma ktags_plain E tag k : is_tagged k = false -> ktags E tag k = [tag].
Proof. destruct k; (reflexivity || discriminate). Qed.

Lemma resolve_k_item key b it it' : resolve_k key b it = RItem it' ->
  exists q tag k, In (q, (tag, k)) (by_table b) /\
    it' = {| i_tag := tag; i_kind := k; i_lo := i_lo it; i_hi := i_hi it; i_mult := i_mult it; i_by := None |}.
Proof.
  unfold resolve_k. destruct key as [p|]; [|destruct (by_skip_if_absent b); discriminate].
  destruct (find _ (by_table b)) as [[q [tag k]]|] eqn:Ef; [|discriminate].
  intros [= <-]. apply find_some in Ef as [Hin _]. eauto.
Qed.

Lemma resolve_k_skip key b it : resolve_k key b it = RSkip -> by_skip_if_absent b = true.
Proof.
  unfold resolve_k. destruct key; [destruct (find _ _) as [[? [? ?]]|]; discriminate|].
  destruct (by_skip_if_absent b); [reflexivity|discriminate].
Qed.

(* it' is what the item it stands for once its dispatch key is known, whoever looked the key up *)
Definition resolves (it it' : item) : Prop :=
  match i_by it with None => it' = it | Some b => exists key, resolve_k key b it = RItem it' end.

Lemma resolve_w_resolves pre it f it' : resolve_w pre it f = RItem it' -> resolves it it'.
Proof. unfold resolve_w, resolves. destruct (i_by it); [eauto|congruence]. Qed.

Lemma resolve_r_resolves pre it bs it' : resolve_r pre it bs = RItem it' -> resolves it it'.
Proof. unfold resolve_r, resolves. destruct (i_by it); [eauto|congruence]. Qed.

Lemma row_ok_inv E r : row_ok E r = true ->
  tag_ok (row_tag r) = true /\ enum_mem E "Tags" (row_tag r) = true /\
  is_tagged (row_kind r) = false /\ kind_ok E (row_kind r) = true.
Proof. unfold row_ok. intros [[[Ht Hm]%andb_prop Hn%negb_true_iff]%andb_prop Hk]%andb_prop. auto. Qed.

(* what item_ok asks: of a plain item a legal tag (of an any-attribute item, checked rows); of a dispatched
   item legal tags and plain kinds in its table, and, when the key is the next type byte, that the item is
   required and never silently skipped *)
Lemma item_ok_inv E it : item_ok E it = true ->
  match i_by it with
  | None => match i_kind it with
            | KTagged t => forall r, In r (find_table E t) -> row_ok E r = true
            | _ => tag_ok (i_tag it) = true /\ kind_ok E (i_kind it) = true
            end
  | Some b => (forall q tag k, In (q, (tag, k)) (by_table b) ->
                 tag_ok tag = true /\ kind_ok E k = true /\ is_tagged k = false) /\
              is_tagged (i_kind it) = false /\
              (by_src b = ByNextType -> i_mult it = Req /\ by_skip_if_absent b = false)
  end.
Proof.
  unfold item_ok. destruct (i_by it) as [b|].
  - intros [[Htab Hnt%negb_true_iff]%andb_prop Hsrc]%andb_prop. rewrite forallb_forall in Htab.
    split; [|split; [exact Hnt|]].
    + intros q tag k [[Ht Hk]%andb_prop Hn%negb_true_iff]%Htab%andb_prop. auto.
    + intros Hs. rewrite Hs in Hsrc. apply andb_prop in Hsrc as [Hr Hk%negb_true_iff].
      split; [destruct (i_mult it); (reflexivity || discriminate)|exact Hk].
  - destruct (i_kind it) as [ | | |tb]; intros H; [apply andb_prop in H; exact H..|]. rewrite forallb_forall in H. exact H.
Qed.

Lemma undispatched_tag_ok E it : item_ok E it = true -> i_by it = None ->
  tag_ok' (i_tag it) (i_kind it) = true.
Proof.
  intros Hok%item_ok_inv Hby. rewrite Hby in Hok. unfold tag_ok'.
  destruct (i_kind it) as [ | | |tb]; [destruct Hok as [-> _]; reflexivity..|reflexivity].
Qed.

Lemma resolves_ok E it it' : item_ok E it = true -> resolves it it' ->
  item_ok E it' = true /\ i_by it' = None /\ i_mult it' = i_mult it /\
  (is_tagged (i_kind it') = true -> it' = it) /\
  (forall t, In t (ktags E (i_tag it') (i_kind it')) -> In t (tags_of_item E it)).
Proof.
  intros Hok. pose proof (item_ok_inv E it Hok) as Hinv. unfold resolves, tags_of_item.
  destruct (i_by it) as [b|] eqn:Eby.
  - destruct Hinv as (Htab & _ & _).
    intros [key (q & tag & k & Hin & ->)%resolve_k_item]. cbn [i_tag i_kind i_mult i_by].
    destruct (Htab q tag k Hin) as (Ht & Hk & Hnt).
    rewrite Hnt, (ktags_plain E tag k Hnt). repeat split; [|discriminate|].
    + unfold item_ok. cbn [i_by i_kind i_tag]. destruct k as [ | | |tb]; [rewrite Ht, Hk; reflexivity..|discriminate Hnt].
    + intros t [<-|[]]. exact (in_map (fun e => fst (snd e)) _ _ Hin).
  - intros ->. repeat split; [exact Hok|exact Eby|]. exact (fun t H => H).
Qed.

Lemma resolve_r_item_ok E pre it bs it' : item_ok E it = true -> resolve_r pre it bs = RItem it' -> item_ok E it' = true.
Proof. intros Hok H. apply (resolves_ok E it it' Hok), (resolve_r_resolves _ _ _ _ H). Qed.

(* The writer resolves an item from the value, the reader from the stream.  A key held by an earlier
   field is the same for both.  A key that is the next type byte belongs to a required item, which
   neither side skips, and is the same when the stream shows the type of the value.  The first two
   alternatives of the premise serve the skip steps: an item one side skips is dispatched on a field. *)
Lemma resolve_agree E pre it f bs : item_ok E it = true ->
  (i_mult it = Req -> resolve_r pre it bs = RSkip \/ resolve_w pre it f = RSkip \/
                      exists x l, f = x :: l /\ type_byte_is bs (tyc x)) ->
  resolve_r pre it bs = resolve_w pre it f.
Proof.
  intros Hok. unfold resolve_r, resolve_w. destruct (i_by it) as [b|] eqn:Eby; [|reflexivity].
  destruct (by_src b) eqn:Es; [reflexivity|].
  apply item_ok_inv in Hok. rewrite Eby in Hok. destruct Hok as (_ & _ & Hnext). destruct (Hnext Es) as [Hreq Hns].
  intros H. destruct (H Hreq) as [Hk%resolve_k_skip|[Hk%resolve_k_skip|(x & l & -> & t4 & r4 & E4 & Hn)]]; try congruence.
  cbn [key_r key_w]. rewrite E4, Hn. reflexivity.
Qed.

Lemma enc_field_req wrf it fs b : i_mult it = Req -> enc_field wrf (it, fs) = Some b ->
  exists x, fs = [x] /\ wrf (i_tag it) (i_kind it) x = Some b.
Proof.
  intros Hreq [Hm H]%enc_field_some. rewrite Hreq in Hm. revert H.
  destruct fs as [|x [|y fs]]; try discriminate. cbn.
  destruct (wrf _ _ x) as [b'|] eqn:Hb; [|discriminate]. rewrite app_nil_r. intros [= <-]. eauto.
Qed.

(* wr_items succeeded: item by item, what the item resolved to and what was emitted for it *)
Inductive wrote (wrf : Z -> kind -> value -> option bytes) :
  list (list value) -> list item -> list (list value) -> bytes -> Prop :=
| wrote_nil pre : wrote wrf pre [] [] []
| wrote_item pre it its f fs it' b r : resolve_w pre it f = RItem it' -> enc_field wrf (it', f) = Some b ->
    wrote wrf (pre ++ [f]) its fs r -> wrote wrf pre (it :: its) (f :: fs) (b ++ r)
| wrote_skip pre it its fs r : resolve_w pre it [] = RSkip ->
    wrote wrf (pre ++ [[]]) its fs r -> wrote wrf pre (it :: its) ([] :: fs) r.

Lemma wr_items_wrote wrf items : forall pre fields body,
  wr_items wrf pre items fields = Some body -> wrote wrf pre items fields body.
Proof.
  induction items as [|it items IH]; intros pre [|f fields] body H; try discriminate; cbn [wr_items] in H.
  - injection H as <-. constructor.
  - destruct (resolve_w pre it f) as [it'| |] eqn:Er; [| |discriminate].
    + destruct (enc_field wrf (it', f)) as [b|] eqn:Eb; [|discriminate].
      destruct (wr_items wrf (pre ++ [f]) items fields) as [r|] eqn:Ew; [|discriminate]. injection H as <-.
      exact (wrote_item wrf _ _ _ _ _ _ _ _ Er Eb (IH _ _ _ Ew)).
    + destruct f; [|discriminate]. exact (wrote_skip wrf _ _ _ _ _ Er (IH _ _ _ H)).
Qed.

(* bs is empty or starts with the three bytes of one of the tags *)
Definition starts_in (tags : list Z) (bs : bytes) : Prop :=
  bs = [] \/ exists t r, In t tags /\ bs = be_enc 3 t ++ r.

Lemma starts_in_app T1 T2 a b : starts_in T1 a -> starts_in T2 b -> starts_in (T1 ++ T2) (a ++ b).
Proof.
  intros [->|(t & r & Ht & ->)] Hb.
  - destruct Hb as [->|(t & r & Ht & ->)]; [left; reflexivity|right]. exists t, r. auto using in_or_app.
  - right. exists t, (r ++ b). rewrite <- app_assoc. auto using in_or_app.
Qed.

(* a concatenation of well-formed items: the body of a structure *)
Definition wf_seq (bs : bytes) : Prop := exists children, bs = List.concat children /\ Forall wf_item children.

Lemma wf_seq_nil : wf_seq [].
Proof. exists []. split; [reflexivity|constructor]. Qed.

Lemma wf_seq_cons b r : wf_item b -> wf_seq r -> wf_seq (b ++ r).
Proof. intros Hb (ch & -> & Hch). exists (b :: ch). split; [reflexivity|constructor; assumption]. Qed.

Lemma wf_seq_app a b : wf_seq a -> wf_seq b -> wf_seq (a ++ b).
Proof.
  intros (c1 & -> & H1) (c2 & -> & H2). exists (c1 ++ c2). split; [symmetry; apply List.concat_app|apply Forall_app; auto].
Qed.

Lemma struct_wf tag body bs : tag_ok tag = true -> wf_seq body ->
  with_hdr tag STRUCT_CODE (zlen body) body = Some bs -> wf_item bs.
Proof.
  intros Ht (children & -> & Hch) (h & [-> Hr]%hdr_spec & ->)%with_hdr_some. unfold tag_ok in Ht.
  pose proof (wf_structure tag children ltac:(change (256 ^ 3) with 16777216; lia) Hch) as Hs.
  unfold zlen in *. rewrite <- !app_assoc. apply Hs. unfold TWO32 in Hr. lia.
Qed.

Section Generic.
Variable E : env.
Variable v : Z.

Lemma find_row_in t tag k' : find_row E v t tag = Some k' ->
  exists r, In r (find_table E t) /\ row_tag r = tag /\ row_kind r = k'.
Proof.
  unfold find_row. destruct (find _ _) as [r|] eqn:Ef; [|discriminate]. intros [= <-].
  apply find_some in Ef as [[Hin _]%filter_In Ht%Z.eqb_eq]. eauto.
Qed.

Lemma tags_of_items_ok items : Forall (fun it => item_ok E it = true) items ->
  forall t, In t (List.concat (map (tags_of_item E) items)) -> tag_ok t = true.
Proof.
  intros Hok t (l & (it & <- & Hit)%in_map_iff & Hj)%in_concat.
  apply (proj1 (Forall_forall _ _) Hok), item_ok_inv in Hit as Hinv.
  unfold tags_of_item in Hj. destruct (i_by it) as [b|].
  - apply in_map_iff in Hj as ([q [tag k]] & <- & He). exact (proj1 (proj1 Hinv q tag k He)).
  - destruct (i_kind it) as [ | | |tb]; [destruct Hj as [<-|[]]; exact (proj1 Hinv)..|].
    apply in_map_iff in Hj as (r & <- & Hr). exact (proj1 (row_ok_inv E r (Hinv r Hr))).
Qed.

Lemma next_ok_enc it t r : item_ok E it = true -> i_by it = None ->
  In t (ktags E (i_tag it) (i_kind it)) -> next_ok E it (be_enc 3 t ++ r) = true.
Proof.
  intros Hok%item_ok_inv Hby Ht. rewrite Hby in Hok. unfold next_ok. unfold ktags in Ht.
  destruct (i_kind it) as [ | | |tb];
    [destruct Ht as [<-|[]]; rewrite is_tag_next_tag by exact (proj1 Hok); apply Z.eqb_refl..|].
  apply in_map_iff in Ht as (rw & <- & Hr). destruct (row_ok_inv E rw (Hok rw Hr)) as (Htag & Hmem & _).
  rewrite (take_be_enc 3), be_dec_tag by exact Htag. exact Hmem.
Qed.

Lemma next_ok_nil it : next_ok E it [] = false.
Proof. unfold next_ok. destruct (i_kind it); reflexivity. Qed.

Lemma next_ok_other it T bs : is_tagged (i_kind it) = false -> starts_in T bs ->
  (forall t, In t T -> tag_ok t = true) -> ~ In (i_tag it) T -> next_ok E it bs = false.
Proof.
  intros Hnt [->|(t & r & Ht & ->)] Hok Hnin; [apply next_ok_nil|].
  replace (next_ok E it (be_enc 3 t ++ r)) with (is_tag_next (i_tag it) (be_enc 3 t ++ r))
    by (unfold next_ok; destruct (i_kind it); (reflexivity || discriminate)).
  rewrite is_tag_next_tag by exact (Hok t Ht). apply Z.eqb_neq. intros ->. exact (Hnin Ht).
Qed.

Section Field.
Variable wrf : Z -> kind -> value -> option bytes.
Variable rdf : Z -> kind -> bytes -> option (value * bytes).
Variable wff : kind -> value -> bool.
Hypothesis wrf_starts : forall tag k x b, wrf tag k x = Some b -> exists r, b = be_enc 3 (etag tag k x) ++ tyc x :: r.
Hypothesis wrf_etag : forall tag k x b, wrf tag k x = Some b -> In (etag tag k x) (ktags E tag k).
(* element-level round trip (the induction hypothesis of the main theorem) *)
Hypothesis elt_rt : forall tag k x b, tag_ok' tag k = true -> wff k x = true ->
                                     wrf tag k x = Some b -> forall r, rdf tag k (b ++ r) = Some (x, r).

Lemma wrf_starts_some_tag tag k x b : wrf tag k x = Some b -> exists t r, In t (ktags E tag k) /\ b = be_enc 3 t ++ r.
Proof. intros H. destruct (wrf_starts _ _ _ _ H) as [r ->]. exists (etag tag k x). eauto using wrf_etag. Qed.

Lemma wrote_start pre items fields body : Forall (fun it => item_ok E it = true) items ->
  wrote wrf pre items fields body -> starts_in (List.concat (map (tags_of_item E) items)) body.
Proof.
  intros Hok H. induction H as [pre|pre it its f fs it' b r Er Eb _ IH|pre it its fs r _ _ IH]; cbn [map List.concat].
  - left; reflexivity.
  - apply starts_in_app; [|exact (IH (Forall_inv_tail Hok))].
    apply enc_field_some in Eb as [_ Eb].
    destruct f as [|x xs]; cbn [map] in Eb; [injection Eb as <-; left; reflexivity|right].
    apply opt_concat_cons_some in Eb as (b0 & r0 & (t & r' & Ht & ->)%wrf_starts_some_tag & _ & ->).
    exists t, (r' ++ r0). rewrite <- app_assoc. split; [|reflexivity].
    destruct (resolves_ok E it it' (Forall_inv Hok) (resolve_w_resolves _ _ _ _ Er)) as (_ & _ & _ & _ & Hin).
    exact (Hin t Ht).
  - apply (starts_in_app _ _ [] r); [left; reflexivity|exact (IH (Forall_inv_tail Hok))].
Qed.

Lemma rd_elt_wr (nxt : bytes -> bool) tag k x b r :
  tag_ok' tag k = true -> wff k x = true ->
  (forall t r, In t (ktags E tag k) -> nxt (be_enc 3 t ++ r) = true) ->
  wrf tag k x = Some b -> nxt (b ++ r) = true /\ rdf tag k (b ++ r) = Some (x, r).
Proof.
  intros Ht Hwx Hnx Hb. split; [|exact (elt_rt tag k x b Ht Hwx Hb r)].
  destruct (wrf_starts_some_tag _ _ _ _ Hb) as (t0 & r0 & Ht0 & ->). rewrite <- app_assoc. apply Hnx, Ht0.
Qed.

Lemma rd_many_wr (nxt : bytes -> bool) tag k xs : forall bs after lfuel,
  tag_ok' tag k = true -> forallb (wff k) xs = true ->
  (forall t r, In t (ktags E tag k) -> nxt (be_enc 3 t ++ r) = true) ->
  opt_concat (map (wrf tag k) xs) = Some bs ->
  nxt after = false ->
  (List.length xs < lfuel)%nat ->
  rd_many (rdf tag k) nxt lfuel (bs ++ after) = Some (xs, after).
Proof.
  induction xs as [|x xs IH]; intros bs after [|lf] Ht Hwf Hnx Henc Hafter Hfuel; try destruct (Nat.nlt_0_r _ Hfuel).
  - injection Henc as <-. cbn [rd_many app]. rewrite Hafter. reflexivity.
  - cbn [map] in Henc. apply opt_concat_cons_some in Henc as (b & r & Hb & Hr & ->).
    apply andb_prop in Hwf as [Hwx Hwf]. cbn [rd_many]. rewrite <- app_assoc.
    destruct (rd_elt_wr nxt tag k x b (r ++ after) Ht Hwx Hnx Hb) as [-> ->].
    rewrite (IH r after lf Ht Hwf Hnx Hr Hafter (proj2 (Nat.succ_lt_mono _ _) Hfuel)). reflexivity.
Qed.

(* the test `n <= 0` of rd_counted against the max n 0 occurrences written *)
Lemma counted_nil n : Z.of_nat 0 = Z.max n 0 -> (n <=? 0) = true.
Proof. lia. Qed.

Lemma counted_cons n m : Z.of_nat (S m) = Z.max n 0 -> (n <=? 0) = false /\ Z.of_nat m = Z.max (n - 1) 0.
Proof. lia. Qed.

Lemma rd_counted_wr tag k xs : forall n bs after fuel,
  tag_ok' tag k = true -> forallb (wff k) xs = true ->
  opt_concat (map (wrf tag k) xs) = Some bs ->
  Z.of_nat (List.length xs) = Z.max n 0 ->
  (List.length xs < fuel)%nat ->
  rd_counted (rdf tag k) fuel n (bs ++ after) = Some (xs, after).
Proof.
  induction xs as [|x xs IH]; intros n bs after [|f] Ht Hwf Henc Hn Hfuel; try destruct (Nat.nlt_0_r _ Hfuel);
    cbn [rd_counted].
  - injection Henc as <-. rewrite (counted_nil n Hn). reflexivity.
  - cbn [map] in Henc. apply opt_concat_cons_some in Henc as (b & r & Hb & Hr & ->).
    apply andb_prop in Hwf as [Hwx Hwf]. destruct (counted_cons n _ Hn) as [-> Hn'].
    rewrite <- app_assoc, (elt_rt tag k x b Ht Hwx Hb (r ++ after)).
    rewrite (IH (n - 1) r after f Ht Hwf Hr Hn' (proj2 (Nat.succ_lt_mono _ _) Hfuel)). reflexivity.
Qed.

(* every occurrence takes at least three bytes: the length of the stream is fuel enough for the loops *)
Lemma enc_len_lt tag k xs bs0 after : opt_concat (map (wrf tag k) xs) = Some bs0 ->
  (List.length xs < S (List.length (bs0 ++ after)))%nat.
Proof.
  revert bs0. induction xs as [|x xs IHx]; intros bs0 H0; [cbn; lia|].
  cbn [map] in H0. apply opt_concat_cons_some in H0 as (b & r & Hb & Hr & ->).
  destruct (wrf_starts_some_tag _ _ _ _ Hb) as (t0 & r0 & _ & ->). specialize (IHx r Hr).
  rewrite !app_length, be_enc_length in *. cbn [List.length]. lia.
Qed.

Lemma rd_field_wr (nxt : bytes -> bool) it cnt fs bs after :
  tag_ok' (i_tag it) (i_kind it) = true -> forallb (wff (i_kind it)) fs = true ->
  count_ok it cnt (List.length fs) = true ->
  (forall t r, In t (ktags E (i_tag it) (i_kind it)) -> nxt (be_enc 3 t ++ r) = true) ->
  enc_field wrf (it, fs) = Some bs ->
  (peeks (i_mult it) = true -> nxt after = false) ->
  rd_field (rdf (i_tag it) (i_kind it)) nxt it cnt (bs ++ after) = Some (fs, after).
Proof.
  intros Ht Hwf Hcnt Hnx [Hm Henc]%enc_field_some Hafter.
  pose proof (enc_len_lt _ _ fs bs after Henc) as Hlen.
  (* a single occurrence: Req and Opt *)
  assert (Hone : forall x, fs = [x] ->
            nxt (bs ++ after) = true /\ rdf (i_tag it) (i_kind it) (bs ++ after) = Some (x, after)).
  { intros x ->. cbn in Henc, Hwf. destruct (wrf _ _ x) as [b|] eqn:Hb; [|discriminate]. injection Henc as <-.
    rewrite app_nil_r. apply andb_prop in Hwf as [Hwx _]. exact (rd_elt_wr nxt _ _ x b after Ht Hwx Hnx Hb). }
  unfold rd_field. unfold count_ok in Hcnt. destruct (i_mult it); cbn [peeks] in Hafter.
  - destruct fs as [|x [|y fs]]; try discriminate. destruct (Hone x eq_refl) as [-> ->]. reflexivity.
  - destruct fs as [|x [|y fs]]; try discriminate.
    + injection Henc as <-. cbn [app]. rewrite (Hafter eq_refl). reflexivity.
    + destruct (Hone x eq_refl) as [-> ->]. reflexivity.
  - apply rd_many_wr; auto.
  - rewrite (rd_many_wr nxt _ _ fs bs after _ Ht Hwf Hnx Henc (Hafter eq_refl) Hlen).
    destruct fs; [discriminate|reflexivity].
  - destruct cnt as [n|]; [|discriminate]. apply rd_counted_wr; auto. apply Z.eqb_eq, Hcnt.
Qed.

(* last premise: either no item looks past its last occurrence (class read from the enclosing stream)
   or nothing follows the body (class with its own sub-stream) *)
Lemma rd_items_wr items : forall pre fields body tail,
  tags_disjointb E items = true -> tagged_lastb items = true ->
  (forall it, In it items -> item_ok E it = true) ->
  wf_items E v wff pre items fields = true ->
  wr_items wrf pre items fields = Some body ->
  (forallb (fun it => negb (peeks (i_mult it))) items = true \/ tail = []) ->
  rd_items E v rdf pre items (body ++ tail) = Some (fields, tail).
Proof.
  intros pre fields body tail Hdj Htl Hok%Forall_forall Hwf Henc%wr_items_wrote Htail.
  induction Henc as [pre|pre it items fs fields it' b r Er Eb Ew IH|pre it items fields r Er Ew IH]; [reflexivity| |].
  (* in both steps the side conditions split into those of the item and those of the items after it *)
  all: cbn [rd_items]; cbn [wf_items] in Hwf; rewrite Er in Hwf.
  all: apply andb_prop in Hdj as [Hdj1 Hdj]; apply andb_prop in Htl as [Htl1 Htl].
  all: pose proof (Forall_inv Hok) as Hokit; apply Forall_inv_tail in Hok.
  all: assert (Htail' : forallb (fun it => negb (peeks (i_mult it))) items = true \/ tail = [])
         by (destruct Htail as [[_ Hnp]%andb_prop|Ht]; auto).
  - apply andb_prop in Hwf as [[Hwf1 Hcnt]%andb_prop Hwf].
    destruct (resolves_ok E it it' Hokit (resolve_w_resolves _ _ _ _ Er)) as (Hokit' & Hby' & Hmult & Hsame & Hin).
    pose proof (undispatched_tag_ok E it' Hokit' Hby') as Htag.
    rewrite <- app_assoc, (resolve_agree E pre it fs), Er; [|exact Hokit|].
    2:{ intros Hreq. rewrite <- Hmult in Hreq. right; right.
        destruct (enc_field_req wrf it' fs b Hreq Eb) as (x & -> & [r0 ->]%wrf_starts).
        exists x, []. split; [reflexivity|]. rewrite <- app_assoc. apply starts_type_byte. }
    (* after the last occurrence of a peeking item the reader must not see the item again: either
       nothing follows (an any-attribute item is the last of its class), or what follows starts
       with a tag of a later item, and those are disjoint from the tags of this one *)
    assert (Hafter : peeks (i_mult it') = true -> next_ok E it' (r ++ tail) = false).
    { rewrite Hmult. intros Hpk.
      destruct Htail as [[Hnp _]%andb_prop| ->]; [rewrite Hpk in Hnp; discriminate|]. rewrite app_nil_r.
      destruct (is_tagged (i_kind it')) eqn:Etg.
      - rewrite (Hsame eq_refl) in Etg. rewrite Etg, Hpk in Htl1.
        destruct Ew; [apply next_ok_nil|discriminate..].
      - apply (next_ok_other it' _ _ Etg (wrote_start _ items _ _ Hok Ew)
                                (tags_of_items_ok items Hok)).
        rewrite forallb_forall in Hdj1. apply memb_false_notin, negb_true_iff, Hdj1, Hin.
        rewrite (ktags_plain E _ _ Etg). left; reflexivity. }
    unfold count_ok in Hcnt. rewrite <- Hmult in Hcnt.
    rewrite (rd_field_wr (next_ok E it') it' (item_count E v pre it) fs b (r ++ tail) Htag Hwf1 Hcnt
               (fun t r0 => next_ok_enc it' t r0 Hokit' Hby') Eb Hafter).
    rewrite (IH Hdj Htl Hok Hwf Htail'). reflexivity.
  - rewrite (resolve_agree E pre it [] (r ++ tail) Hokit (fun _ => or_intror (or_introl Er))), Er.
    rewrite (IH Hdj Htl Hok Hwf Htail'). reflexivity.
Qed.

End Field.

Section Children.
Variable wrf : Z -> kind -> value -> option bytes.
Variable wff : kind -> value -> bool.
Hypothesis elt_wf : forall tag k x b, tag_ok' tag k = true -> wff k x = true -> wrf tag k x = Some b -> wf_item b.

Lemma field_children tag k xs : tag_ok' tag k = true -> forall bs,
  forallb (wff k) xs = true -> opt_concat (map (wrf tag k) xs) = Some bs -> wf_seq bs.
Proof.
  intros Ht. induction xs as [|x xs IHx]; intros bs Hall H.
  - injection H as <-. exact wf_seq_nil.
  - cbn [map] in H. apply opt_concat_cons_some in H as (b & r & Hb & Hr & ->).
    apply andb_prop in Hall as [Hx Hall]. exact (wf_seq_cons b r (elt_wf tag k x b Ht Hx Hb) (IHx r Hall Hr)).
Qed.

Lemma wrote_children pre items fields body : Forall (fun it => item_ok E it = true) items ->
  wf_items E v wff pre items fields = true -> wrote wrf pre items fields body -> wf_seq body.
Proof.
  intros Hok Hall H.
  induction H as [pre|pre it its f fs it' b r Er Eb _ IH|pre it its fs r Er _ IH]; cbn [wf_items] in Hall.
  - exact wf_seq_nil.
  - rewrite Er in Hall. apply andb_prop in Hall as [[Hall1 _]%andb_prop Hall].
    apply wf_seq_app; [|exact (IH (Forall_inv_tail Hok) Hall)].
    destruct (resolves_ok E it it' (Forall_inv Hok) (resolve_w_resolves _ _ _ _ Er)) as (Hokit' & Hby' & _).
    apply enc_field_some in Eb as [_ Eb].
    exact (field_children _ _ f (undispatched_tag_ok E it' Hokit' Hby') b Hall1 Eb).
  - rewrite Er in Hall. exact (IH (Forall_inv_tail Hok) Hall).
Qed.
End Children.

End Generic.

(* xs were read one after the other from bs, leaving rest *)
Inductive reads (rd1 : bytes -> option (value * bytes)) : bytes -> list value -> bytes -> Prop :=
| reads_nil bs : reads rd1 bs [] bs
| reads_cons bs x r xs rest : rd1 bs = Some (x, r) -> reads rd1 r xs rest -> reads rd1 bs (x :: xs) rest.

Lemma rd_many_reads rd1 nxt : forall lfuel bs xs rest,
  rd_many rd1 nxt lfuel bs = Some (xs, rest) -> reads rd1 bs xs rest.
Proof.
  induction lfuel as [|lf IH]; intros bs xs rest H; [discriminate|]. cbn [rd_many] in H.
  destruct (nxt bs); [|injection H as <- <-; constructor].
  destruct (rd1 bs) as [[x r]|] eqn:E1; [|discriminate].
  destruct (rd_many rd1 nxt lf r) as [[xs' r']|] eqn:E2; [|discriminate]. injection H as <- <-.
  exact (reads_cons rd1 _ _ _ _ _ E1 (IH _ _ _ E2)).
Qed.

Lemma rd_counted_reads rd1 : forall fuel n bs xs rest, rd_counted rd1 fuel n bs = Some (xs, rest) ->
  reads rd1 bs xs rest /\ Z.of_nat (List.length xs) = Z.max n 0.
Proof.
  induction fuel as [|f IH]; intros n bs xs rest H; cbn [rd_counted] in H;
    destruct (n <=? 0) eqn:En; try discriminate; try (injection H as <- <-; split; [constructor|cbn; lia]).
  destruct (rd1 bs) as [[x r]|] eqn:E1; [|discriminate].
  destruct (rd_counted rd1 f (n - 1) r) as [[xs' r']|] eqn:E2; [|discriminate]. injection H as <- <-.
  destruct (IH _ _ _ _ E2) as [Hr Hn]. split; [exact (reads_cons rd1 _ _ _ _ _ E1 Hr)|cbn [List.length]; lia].
Qed.

Lemma rd_field_reads rd1 nxt it cnt bs fs rest : rd_field rd1 nxt it cnt bs = Some (fs, rest) ->
  reads rd1 bs fs rest /\ mult_ok (i_mult it) (List.length fs) = true /\ count_ok it cnt (List.length fs) = true.
Proof.
  unfold rd_field, count_ok.
  assert (Hone : forall x r, rd1 bs = Some (x, r) -> reads rd1 bs [x] r)
    by (intros x r E1; exact (reads_cons rd1 _ _ _ _ _ E1 (reads_nil rd1 r))).
  destruct (i_mult it).
  - destruct (nxt bs); [|discriminate]. destruct (rd1 bs) as [[x r]|]; [|discriminate]. intros [= <- <-]. auto.
  - destruct (nxt bs); [|intros [= <- <-]; repeat split; constructor].
    destruct (rd1 bs) as [[x r]|]; [|discriminate]. intros [= <- <-]. auto.
  - intros H%rd_many_reads. auto.
  - destruct (rd_many rd1 nxt _ bs) as [[[|x xs] r]|] eqn:Em; try discriminate. intros [= <- <-].
    apply rd_many_reads in Em. auto.
  - destruct cnt as [n|]; [|discriminate]. intros [Hr Hn%Z.eqb_eq]%rd_counted_reads. auto.
Qed.

(* the byte strings the reader-side theorem speaks of: bytes, fewer than 2^31 of them *)
Definition small (bs : bytes) : Prop := bytes_ok bs = true /\ zlen bs < TWO31.

Lemma small_app (u r : bytes) : small (u ++ r) -> small u /\ small r.
Proof.
  intros [[Hu Hr]%bytes_ok_app Hs]. rewrite zlen_app in Hs. pose proof (zlen_nonneg u). pose proof (zlen_nonneg r).
  repeat split; (assumption || lia).
Qed.

Lemma twice_app (b1 b2 u1 u2 : bytes) :
  zlen b1 <= 2 * zlen u1 -> zlen b2 <= 2 * zlen u2 -> zlen (b1 ++ b2) <= 2 * zlen (u1 ++ u2).
Proof. rewrite !zlen_app. lia. Qed.

Lemma twice_le_app (b u l : bytes) : zlen b <= 2 * zlen u -> zlen b <= 2 * zlen (u ++ l).
Proof. rewrite zlen_app. pose proof (zlen_nonneg l). lia. Qed.

(* reading x consumed `used` and left rest; x is well-formed and its encoding is at most twice as long
   as `used` (a primitive is re-encoded within 8 bytes of what it took, and took at least 8), so that
   the length of a structure read from less than 2^31 bytes fits its header when written again *)
Definition reencodes (wrf : Z -> kind -> value -> option bytes) (wff : kind -> value -> bool)
                     (tag : Z) (k : kind) (bs : bytes) (x : value) (rest : bytes) : Prop :=
  exists used bs', bs = used ++ rest /\ (wff k x = true /\ wrf tag k x = Some bs') /\
                   zlen bs' <= 2 * zlen used /\ type_byte_is bs (tyc x).

Definition SoundAt (rdf : Z -> kind -> bytes -> option (value * bytes))
                   (wrf : Z -> kind -> value -> option bytes) (wff : kind -> value -> bool) : Prop :=
  forall tag k bs x rest, tag_ok' tag k = true -> small bs ->
    rdf tag k bs = Some (x, rest) -> reencodes wrf wff tag k bs x rest.

Lemma dec_prim_sound mem t tag bs p r : tag_ok tag = true -> small bs ->
  dec_prim mem t tag bs = Some (p, r) ->
  exists used bs', bs = used ++ r /\ wf_prim mem p = true /\ ptype_of p = t /\
                   enc_prim tag p = Some bs' /\ zlen bs' <= 2 * zlen used /\ type_byte_is bs (type_code t).
Proof.
  intros Ht [Hok Hs] Ed.
  assert (Htb : type_byte_is bs (type_code t)).
  { unfold dec_prim in Ed. destruct (dec_hdr tag (type_code t) bs) as [[len r0]|] eqn:Eh; [|discriminate].
    exact (dec_hdr_type_byte _ _ _ _ _ Eh). }
  destruct (dec_sound mem t tag bs p r Ht Hok Hs Ed) as (used & bs' & -> & Hu & Henc & Hl & Hwf & Hty).
  exists used, bs'. repeat split; try assumption. lia.
Qed.

Section Items.
Variable E : env.
Variable v : Z.
Variable rdf : Z -> kind -> bytes -> option (value * bytes).
Variable wrf : Z -> kind -> value -> option bytes.
Variable wff : kind -> value -> bool.
Hypothesis Hsound : SoundAt rdf wrf wff.

(* reencodes, for the occurrences xs of one field; the first of them shows its type byte *)
Lemma reads_sound tag k : tag_ok' tag k = true -> forall bs xs rest, reads (rdf tag k) bs xs rest ->
  small bs ->
  (exists used bs', bs = used ++ rest /\ forallb (wff k) xs = true /\
                    opt_concat (map (wrf tag k) xs) = Some bs' /\ zlen bs' <= 2 * zlen used) /\
  (forall x l, xs = x :: l -> type_byte_is bs (tyc x)).
Proof.
  intros Ht bs xs rest H. induction H as [bs|bs x r xs rest E1 _ IH]; intros Hsm.
  - split; [|discriminate]. exists [], []. repeat split. exact (Z.le_refl 0).
  - destruct (Hsound tag k bs x r Ht Hsm E1) as (u1 & b1 & -> & [Hw1 Hb1] & Hl1 & Hty).
    destruct (small_app u1 r Hsm) as [_ Hsmr].
    destruct (IH Hsmr) as [(u2 & b2 & -> & Hw2 & Hb2 & Hl2) _].
    split; [|intros ? ? [= <- _]; exact Hty]. exists (u1 ++ u2), (b1 ++ b2). rewrite <- app_assoc.
    cbn [forallb map opt_concat]. rewrite Hw1, Hw2, Hb1, Hb2. repeat split. apply twice_app; assumption.
Qed.

Lemma rd_items_sound items : Forall (fun it => item_ok E it = true) items ->
  forall pre bs fields rest, small bs ->
  rd_items E v rdf pre items bs = Some (fields, rest) ->
  exists used body, bs = used ++ rest /\ wf_items E v wff pre items fields = true /\
     wr_items wrf pre items fields = Some body /\ zlen body <= 2 * zlen used.
Proof.
  induction items as [|it items IH]; intros Hok pre bs fields rest Hsm H.
  - injection H as <- <-. exists [], []. repeat split. exact (Z.le_refl 0).
  - cbn [rd_items] in H.
    pose proof (Forall_inv Hok) as Hokit. apply Forall_inv_tail in Hok.
    destruct (resolve_r pre it bs) as [it'| |] eqn:Er; [| |discriminate].
    + destruct (rd_field _ _ it' _ bs) as [[f r]|] eqn:E1; [|discriminate].
      destruct (rd_items E v rdf (pre ++ [f]) items r) as [[fs r']|] eqn:E2; [|discriminate]. injection H as <- <-.
      destruct (resolves_ok E it it' Hokit (resolve_r_resolves _ _ _ _ Er)) as (Hokit' & Hby' & Hmult & _).
      apply rd_field_reads in E1 as (Hrd & Hm1 & Hc1).
      destruct (reads_sound _ _ (undispatched_tag_ok E it' Hokit' Hby') bs f r Hrd Hsm) as [(u1 & b1 & -> & Hw1 & Hb1 & Hl1) Hty].
      rewrite (resolve_agree E pre it f) in Er; [|exact Hokit|].
      2:{ rewrite <- Hmult. intros Hr. rewrite Hr in Hm1. destruct f as [|x l]; [discriminate|].
          right; right. exists x, l. split; [reflexivity|exact (Hty x l eq_refl)]. }
      destruct (small_app u1 r Hsm) as [_ Hsmr].
      destruct (IH Hok (pre ++ [f]) r fs r' Hsmr E2) as (u2 & b2 & -> & Hw2 & Hb2 & Hl2).
      exists (u1 ++ u2), (b1 ++ b2). rewrite <- app_assoc. split; [reflexivity|].
      unfold count_ok in Hc1. rewrite Hmult in Hc1.
      cbn [wf_items wr_items]. unfold count_ok.
      rewrite Er, Hw1, Hc1, Hw2, (proj2 (enc_field_some wrf it' f b1) (conj Hm1 Hb1)), Hb2.
      repeat split. apply twice_app; assumption.
    + destruct (rd_items E v rdf (pre ++ [[]]) items bs) as [[fs r']|] eqn:E2; [|discriminate]. injection H as <- <-.
      rewrite (resolve_agree E pre it [] bs Hokit (fun _ => or_introl Er)) in Er.
      destruct (IH Hok (pre ++ [[]]) bs fs r' Hsm E2) as (u2 & b2 & -> & Hw2 & Hb2 & Hl2).
      exists u2, b2. cbn [wf_items wr_items]. rewrite Er. auto.
Qed.
End Items.

(* BytearrayStream.read(length) on a stream that holds the whole body *)
Lemma read_body (a b : bytes) : let n := Z.to_nat (Z.min (zlen a) (zlen (a ++ b))) in
  firstn n (a ++ b) = a /\ skipn n (a ++ b) = b.
Proof.
  assert (Hn : Z.to_nat (Z.min (zlen a) (zlen (a ++ b))) = List.length a).
  { rewrite zlen_app. pose proof (zlen_nonneg b). unfold zlen in *. lia. }
  split; [apply firstn_app_exact|apply skipn_app_exact]; exact Hn.
Qed.

(* what reading back needs of a class at version v: cls_ok, for the versions it sweeps *)
Definition cls_checked (E : env) (v : Z) (k : cls) : Prop :=
  c_rd k = c_wr k /\ tags_disjointb E (filter (active v) (c_rd k)) = true /\
  Forall (fun it => item_ok E it = true) (filter (active v) (c_rd k)) /\
  (c_substream k = false -> forallb (fun it => negb (peeks (i_mult it))) (filter (active v) (c_rd k)) = true) /\
  tagged_lastb (filter (active v) (c_rd k)) = true /\ c_post_rd k = c_post_wr k.

(* C02 from the writer schemas alone (wr_wf_w): well-formedness of what `wr` emits needs neither the reader
   schemas nor the version to be a known one, only that every writer item and every table row carries a
   legal tag (env_wr_ok).  Reading back (C01) needs the reader/writer comparison too: it enters wr_emits as
   a premise on the classes, cls_checked, so that one induction serves both properties. *)
Section WriterOnly.
Variable E : env.
Variable v : Z.
Hypothesis HW : env_wr_ok E = true.

Lemma cls_wr_ok_of c k : find_cls E c = Some k -> Forall (fun it => item_ok E it = true) (filter (active v) (c_wr k)).
Proof.
  unfold find_cls. intros [Hk _]%find_some. apply Forall_forall. intros it [Hin _]%filter_In.
  pose proof HW as [H1 _]%andb_prop. rewrite forallb_forall in H1. specialize (H1 _ Hk).
  rewrite forallb_forall in H1. exact (H1 it Hin).
Qed.

Lemma find_row_tag_ok t tg k' : find_row E v t tg = Some k' -> tag_ok tg = true.
Proof.
  intros (r & Hin & <- & _)%find_row_in. pose proof HW as [_ H2]%andb_prop.
  unfold find_table in Hin. destruct (find _ (e_tables E)) as [[n rows]|] eqn:Ef; [|destruct Hin].
  apply find_some in Ef as [Hint _]. rewrite forallb_forall in H2. specialize (H2 _ Hint). cbn [snd] in H2.
  rewrite forallb_forall in H2. exact (proj1 (row_ok_inv E r (H2 r Hin))).
Qed.

(* All that is proved of the bytes wr emits, by one induction on the depth: (1) they start with the tag
   and the type of the value, (2) the tag is one the kind can take - this is what the reader's peeks and its
   dispatch on the next type see of the elements one level down; for a well-formed value (3) they are a
   well-formed TTLV item and, (4) when the classes pass the reader/writer comparison, rd gives the value
   back and leaves what follows.  IHstarts, IHtag, IHwf, IHrt are parts 1-4 of the induction hypothesis. *)
Theorem wr_emits : forall fuel tag k x bs, wr E v fuel tag k x = Some bs ->
  (exists r, bs = be_enc 3 (etag tag k x) ++ tyc x :: r) /\ In (etag tag k x) (ktags E tag k) /\
  (tag_ok' tag k = true -> wfv E v fuel k x = true ->
   wf_item bs /\
   ((forall c k, find_cls E c = Some k -> cls_checked E v k) ->
    forall rest, rd E v fuel tag k (bs ++ rest) = Some (x, rest))).
Proof.
  induction fuel as [|f IH]; intros tag k x bs Hw; [discriminate|]. cbn [wr] in Hw.
  pose proof (fun t k x b H => proj1 (IH t k x b H)) as IHstarts.
  pose proof (fun t k x b H => proj1 (proj2 (IH t k x b H))) as IHtag.
  pose proof (fun t k x b Ht Hf H => proj1 (proj2 (proj2 (IH t k x b H)) Ht Hf)) as IHwf.
  pose proof (fun Hchk t k x b Ht Hf H => proj2 (proj2 (proj2 (IH t k x b H)) Ht Hf) Hchk) as IHrt.
  destruct k as [t|e|c|t]; destruct x as [p|fields|tg y]; try discriminate; cbn [etag tyc ktags wfv rd].
  - destruct (ptype_eqb (ptype_of p) t) eqn:Et; [|discriminate]. apply ptype_eqb_eq in Et as <-.
    destruct (ptype_eqb (ptype_of p) PEnum) eqn:En; [discriminate|]. cbn [andb negb] in Hw.
    split; [exact (enc_prim_starts _ _ _ Hw)|]. split; [left; reflexivity|]. intros Ht Hwf.
    assert (Hp : wf_prim (fun _ => false) p = true).
    { (* byte strings hold bytes (wfv); p is no enumeration (En); an encoding exists (Hw) *)
      apply (enc_some_iff_wf _ tag); [destruct p; (exact I || exact Hwf)|destruct p; (exact I || discriminate)|eauto]. }
    split; [exact (enc_prim_wf _ tag p bs Ht Hp Hw)|]. intros _ rest.
    rewrite (dec_enc_prim _ tag p bs rest Ht Hp Hw). reflexivity.
  - destruct p as [| | |n| | | | |]; try discriminate.
    split; [exact (enc_prim_starts _ _ _ Hw)|]. split; [left; reflexivity|]. intros Ht Hwf.
    assert (Hp : wf_prim (enum_mem E e) (VEnum n) = true)
      by (apply (enc_some_iff_wf _ tag); [exact I|exact Hwf|eauto]).
    split; [exact (enc_prim_wf _ tag _ bs Ht Hp Hw)|]. intros _ rest.
    rewrite (dec_enc_prim _ tag _ bs rest Ht Hp Hw : dec_prim _ PEnum _ _ = _). reflexivity.
  - destruct (find_cls E c) as [k|] eqn:Ec; [|discriminate].
    destruct (v <? c_minver k) eqn:Emv; [discriminate|].
    destruct (forallb (post_ok v fields) (c_post_wr k)) eqn:Epo; [|discriminate]. cbn [negb andb] in Hw |- *.
    destruct (wr_items (wr E v f) [] (filter (active v) (c_wr k)) fields) as [body|] eqn:Eb; [|discriminate].
    split; [exact (with_hdr_starts _ _ _ _ _ Hw)|]. split; [left; reflexivity|]. intros Ht Hwfi. split.
    + apply wr_items_wrote in Eb.
      exact (struct_wf tag body bs Ht (wrote_children E v _ _ IHwf _ _ _ _ (cls_wr_ok_of c k Ec) Hwfi Eb) Hw).
    + intros Hchk rest. destruct (Hchk c k Ec) as (Hrw & Hdj & Hio & Hnp & Htl & Hpo). rewrite Forall_forall in Hio.
      rewrite <- Hrw in Hwfi, Eb. rewrite (dec_hdr_with_hdr tag _ body bs rest Ht Hw), Hpo.
      pose proof (rd_items_wr E v (wr E v f) (rd E v f) (wfv E v f) IHstarts IHtag (IHrt Hchk)
                    (filter (active v) (c_rd k)) [] fields body) as Hitems.
      destruct (c_substream k).
      * destruct (read_body body rest) as [-> ->].
        rewrite <- (app_nil_r body) at 1. rewrite (Hitems [] Hdj Htl Hio Hwfi Eb (or_intror eq_refl)), Epo.
        cbn [negb]. rewrite andb_false_r. reflexivity.
      * rewrite (Hitems rest Hdj Htl Hio Hwfi Eb (or_introl (Hnp eq_refl))), Epo. reflexivity.
  - destruct (find_row E v t tg) as [k'|] eqn:Ef; [|discriminate].
    destruct (is_tagged k') eqn:Hnt; [discriminate|]. cbn [negb andb].
    destruct (IHstarts tg k' y bs Hw) as [r0 Hb0]. rewrite (etag_plain _ _ _ Hnt) in Hb0.
    pose proof (find_row_tag_ok t tg k' Ef) as Htg.
    split; [eauto|]. split.
    { destruct (find_row_in _ _ _ _ _ Ef) as (r & Hin & <- & _). apply in_map, Hin. }
    intros _ Hwf. split; [exact (IHwf tg k' y bs (tag_ok_any _ _ Htg) Hwf Hw)|].
    intros Hchk rest.
    assert (Htk : take_exact 3 (bs ++ rest) = Some (be_enc 3 tg, tyc y :: r0 ++ rest))
      by (rewrite Hb0, <- app_assoc; apply (take_be_enc 3)).
    rewrite Htk, (be_dec_tag tg Htg), Ef, Hnt, (IHrt Hchk tg k' y bs (tag_ok_any _ _ Htg) Hwf Hw rest). reflexivity.
Qed.

Theorem wr_wf_w : forall fuel tag k x bs, tag_ok tag = true -> wfv E v fuel k x = true ->
  wr E v fuel tag k x = Some bs -> wf_item bs.
Proof.
  intros fuel tag k x bs Ht Hwf Hw. destruct (wr_emits fuel tag k x bs Hw) as (_ & _ & Hwell).
  exact (proj1 (Hwell (tag_ok_any _ _ Ht) Hwf)).
Qed.
End WriterOnly.

Lemma mult_eqb_prop a b : mult_eqb a b = true -> a = b.
Proof.
  destruct a, b; cbn; try discriminate; try reflexivity.
  intros [[Hi%Nat.eqb_eq Hc%String.eqb_eq]%andb_prop Ht%Z.eqb_eq]%andb_prop. congruence.
Qed.

Lemma kind_eqb_prop a b : kind_eqb a b = true -> a = b.
Proof.
  destruct a, b; cbn; try discriminate; [intros H%ptype_eqb_eq|intros H%String.eqb_eq..]; congruence.
Qed.

Lemma pval_eqb_prop a b : pval_eqb a b = true -> a = b.
Proof.
  destruct a, b; cbn; try discriminate; intros H;
    (apply Z.eqb_eq in H || apply bytes_eqb_eq in H || apply Bool.eqb_prop in H); congruence.
Qed.

Lemma table_eqb_prop a : forall b, table_eqb a b = true -> a = b.
Proof.
  induction a as [|[p [t k]] a IH]; intros [|[q [u l]] b]; cbn; try discriminate; [reflexivity|].
  intros [[[Hp%pval_eqb_prop Ht%Z.eqb_eq]%andb_prop Hk%kind_eqb_prop]%andb_prop Hr%IH]%andb_prop. congruence.
Qed.

Lemma by_eqb_prop a b : by_eqb a b = true -> a = b.
Proof.
  destruct a as [[sa s t]|], b as [[sb r u]|]; cbn; try discriminate; [|reflexivity].
  intros [[Hi Hs%Bool.eqb_prop]%andb_prop Ht%table_eqb_prop]%andb_prop.
  destruct sa as [i|], sb as [j|]; try discriminate; [apply Nat.eqb_eq in Hi|]; congruence.
Qed.

Lemma item_eqb_prop a b : item_eqb a b = true -> a = b.
Proof.
  unfold item_eqb. destruct a, b; cbn.
  intros [[[[[Ht%Z.eqb_eq Hk%kind_eqb_prop]%andb_prop Hl%Z.eqb_eq]%andb_prop Hh%Z.eqb_eq]%andb_prop
            Hm%mult_eqb_prop]%andb_prop Hb%by_eqb_prop]%andb_prop.
  congruence.
Qed.

Lemma items_eqb_prop a : forall b, items_eqb a b = true -> a = b.
Proof.
  induction a as [|x a IH]; intros [|y b]; cbn; try discriminate; [reflexivity|].
  intros [Hx%item_eqb_prop Hr%IH]%andb_prop. congruence.
Qed.

Lemma nats_eqb_prop a : forall b, nats_eqb a b = true -> a = b.
Proof.
  induction a as [|x a IH]; intros [|y b]; cbn; try discriminate; [reflexivity|].
  intros [Hx%Nat.eqb_eq Hr%IH]%andb_prop. congruence.
Qed.

Lemma pcheck_eqb_prop a b : pcheck_eqb a b = true -> a = b.
Proof.
  destruct a, b; cbn; try discriminate.
  - intros H%nats_eqb_prop. congruence.
  - intros [[Hi%Nat.eqb_eq Hk%Nat.eqb_eq]%andb_prop Hp%pval_eqb_prop]%andb_prop. congruence.
Qed.

Lemma post_eqb_prop a b : post_eqb a b = true -> a = b.
Proof.
  unfold post_eqb. destruct a, b; cbn.
  intros [[Hl%Z.eqb_eq Hh%Z.eqb_eq]%andb_prop Hc%pcheck_eqb_prop]%andb_prop. congruence.
Qed.

Lemma posts_eqb_prop a : forall b, posts_eqb a b = true -> a = b.
Proof.
  induction a as [|x a IH]; intros [|y b]; cbn; try discriminate; [reflexivity|].
  intros [Hx%post_eqb_prop Hr%IH]%andb_prop. congruence.
Qed.

Lemma cls_ok_inv E k : cls_ok E k = true ->
  c_rd k = c_wr k /\ forallb (item_ok E) (c_rd k) = true /\
  forallb (fun v => tags_disjointb E (filter (active v) (c_rd k))) VERSIONS = true /\
  (c_substream k || forallb (fun it => negb (peeks (i_mult it))) (c_rd k)) = true /\
  tagged_lastb (c_rd k) = true /\ c_post_rd k = c_post_wr k.
Proof.
  unfold cls_ok.
  intros [[[[[Hrw%items_eqb_prop Hio]%andb_prop Hd]%andb_prop Hsub]%andb_prop Htl]%andb_prop Hpo%posts_eqb_prop]%andb_prop.
  auto 6.
Qed.

Lemma env_ok_wr E : env_ok E = true -> env_wr_ok E = true.
Proof.
  unfold env_ok, env_wr_ok. intros [H1 ->]%andb_prop. rewrite andb_true_r.
  rewrite forallb_forall in *. intros k (Hrw & Hio & _)%H1%cls_ok_inv. rewrite <- Hrw. exact Hio.
Qed.

Lemma tagged_lastb_filter (f : item -> bool) items : tagged_lastb items = true -> tagged_lastb (filter f items) = true.
Proof.
  induction items as [|it items IH]; intros H; [reflexivity|]. cbn [tagged_lastb] in H.
  apply andb_prop in H as [H1 H2]. cbn [filter]. destruct (f it); [|apply IH; exact H2].
  cbn [tagged_lastb]. rewrite (IH H2), andb_true_r.
  destruct (negb (is_tagged (i_kind it) && peeks (i_mult it))) eqn:En; [reflexivity|]. cbn in H1.
  destruct items; [reflexivity|discriminate].
Qed.

(* a structure read from less than 2^31 bytes has a body that fits the header when written again *)
Lemma struct_reenc tag (h u rest0 body : bytes) :
  zlen h = 8 -> zlen (h ++ u ++ rest0) < TWO31 -> zlen body <= 2 * zlen u ->
  exists bs', with_hdr tag STRUCT_CODE (zlen body) body = Some bs' /\ zlen bs' <= 2 * zlen (h ++ u).
Proof.
  rewrite !zlen_app. intros Lh Hs Hlb.
  pose proof (zlen_nonneg u). pose proof (zlen_nonneg rest0). pose proof (zlen_nonneg body).
  destruct (hdr_total tag STRUCT_CODE (zlen body)) as [hb Hhb]; [unfold TWO31, TWO32 in *; lia|].
  assert (Hbs' : with_hdr tag STRUCT_CODE (zlen body) body = Some (hb ++ body))
    by (unfold with_hdr; rewrite Hhb; reflexivity).
  exists (hb ++ body). split; [exact Hbs'|]. rewrite (with_hdr_len _ _ _ _ _ Hbs'). lia.
Qed.

Section Checked.
Variable E : env.
Variable v : Z.
Hypothesis HE : env_ok E = true.

Lemma cls_ok_of c k : find_cls E c = Some k -> cls_ok E k = true.
Proof.
  unfold find_cls. intros [Hc _]%find_some. pose proof HE as [Hall _]%andb_prop.
  rewrite forallb_forall in Hall. exact (Hall k Hc).
Qed.

Lemma cls_checked_of c k : In v VERSIONS -> find_cls E c = Some k -> cls_checked E v k.
Proof.
  intros Hv (Hrw & Hio & Hd & Hsub & Htl & Hpo)%cls_ok_of%cls_ok_inv.
  rewrite forallb_forall in Hio, Hd.
  repeat split; [exact Hrw|exact (Hd v Hv)| | |apply tagged_lastb_filter; exact Htl|exact Hpo].
  - apply Forall_forall. intros it [Hin _]%filter_In. exact (Hio it Hin).
  - intros Hs. rewrite Hs in Hsub. cbn [orb] in Hsub. rewrite forallb_forall in *.
    intros it [Hin _]%filter_In. exact (Hsub it Hin).
Qed.

Theorem roundtrip : In v VERSIONS ->
  forall fuel tag k x bs, tag_ok tag = true -> wfv E v fuel k x = true ->
  wr E v fuel tag k x = Some bs -> forall rest, rd E v fuel tag k (bs ++ rest) = Some (x, rest).
Proof.
  intros Hv fuel tag k x bs Ht Hwf Hw.
  destruct (wr_emits E v (env_ok_wr E HE) fuel tag k x bs Hw) as (_ & _ & Hwell).
  exact (proj2 (Hwell (tag_ok_any _ _ Ht) Hwf) (fun c k Ec => cls_checked_of c k Hv Ec)).
Qed.

Corollary reencode : In v VERSIONS ->
  forall fuel tag k x bs rest x' rest', tag_ok tag = true -> wfv E v fuel k x = true ->
  wr E v fuel tag k x = Some bs -> rd E v fuel tag k (bs ++ rest) = Some (x', rest') ->
  x' = x /\ rest' = rest /\ wr E v fuel tag k x' = Some bs.
Proof.
  intros Hv fuel tag k x bs rest x' rest' Ht Hwf Hw Hr.
  rewrite (roundtrip Hv fuel tag k x bs Ht Hwf Hw rest) in Hr. injection Hr as <- <-. auto.
Qed.

Theorem wr_wf : In v VERSIONS -> forall fuel tag k x bs, tag_ok tag = true -> wfv E v fuel k x = true ->
  wr E v fuel tag k x = Some bs -> wf_item bs.
Proof. intros _. exact (wr_wf_w E v (env_ok_wr E HE)). Qed.

(* for any byte string the decoder accepts, the decoded value is well-formed and encodable *)
Theorem rd_sound : forall fuel, SoundAt (rd E v fuel) (wr E v fuel) (wfv E v fuel).
Proof.
  induction fuel as [|f IH]; intros tag k bs x rest Ht Hsm H; [discriminate|].
  cbn [rd] in H. destruct k as [t|e|c|t].
  - destruct (ptype_eqb t PEnum) eqn:Ene; [discriminate|].
    destruct (dec_prim (fun _ => false) t tag bs) as [[p r]|] eqn:Ed; [|discriminate]. injection H as <- <-.
    destruct (dec_prim_sound _ _ _ _ _ _ Ht Hsm Ed) as (used & bs' & -> & Hwf & <- & Henc & Hl & Htb).
    exists used, bs'. split; [reflexivity|].
    cbn [wr wfv]. rewrite (proj2 (ptype_eqb_eq _ _) eq_refl), Ene. repeat split; try assumption.
    destruct p; try reflexivity. apply andb_prop in Hwf as [Hb _]. exact Hb.
  - destruct (dec_prim (enum_mem E e) PEnum tag bs) as [[p r]|] eqn:Ed; [|discriminate]. injection H as <- <-.
    destruct (dec_prim_sound _ _ _ _ _ _ Ht Hsm Ed) as (used & bs' & -> & Hwf & Hty & Henc & Hl & Htb).
    destruct p; try discriminate. exists used, bs'. split; [reflexivity|].
    apply andb_prop in Hwf as [_ Hm]. repeat split; assumption.
  - destruct (find_cls E c) as [k|] eqn:Ec; [|discriminate].
    destruct (cls_ok_inv E k (cls_ok_of c k Ec)) as (Hrw & Hall & _ & _ & _ & Hpo).
    rewrite forallb_forall in Hall.
    assert (Hio : Forall (fun it => item_ok E it = true) (filter (active v) (c_rd k)))
      by (apply Forall_forall; intros it [Hit _]%filter_In; exact (Hall it Hit)).
    destruct (v <? c_minver k) eqn:Emv; [discriminate|].
    destruct (dec_hdr tag STRUCT_CODE bs) as [[len r]|] eqn:Eh; [|discriminate].
    pose proof (dec_hdr_type_byte _ _ _ _ _ Eh) as Htb.
    destruct (dec_hdr_spec _ _ _ _ _ Eh (proj1 Hsm)) as (h & -> & Lh & _ & _).
    destruct (small_app h r Hsm) as [_ Hsmr].
    (* both ways of reading the items end alike: u is what they count as consumed *)
    assert (Hfin : forall u rest0 fields body, r = u ++ rest0 -> zlen body <= 2 * zlen u ->
              forallb (post_ok v fields) (c_post_rd k) = true ->
              wf_items E v (wfv E v f) [] (filter (active v) (c_rd k)) fields = true ->
              wr_items (wr E v f) [] (filter (active v) (c_rd k)) fields = Some body ->
              reencodes (wr E v (S f)) (wfv E v (S f)) tag (KStruct c) (h ++ r) (VS fields) rest0).
    { intros u rest0 fields body -> Hlb Hpok Hwff Hbody.
      destruct (struct_reenc tag h u rest0 body Lh (proj2 Hsm) Hlb) as (bs' & Hbs' & Hl).
      exists (h ++ u), bs'. rewrite Hrw in Hwff, Hbody. rewrite Hpo in Hpok. split; [apply app_assoc|].
      cbn [wr wfv]. rewrite Ec, Emv, Hpok, Hwff, Hbody. repeat split; assumption. }
    destruct (c_substream k).
    + set (n := Z.to_nat (Z.min len (zlen r))) in *.
      destruct (rd_items E v (rd E v f) [] _ (firstn n r)) as [[fields leftover]|] eqn:Ei; [|discriminate].
      destruct (forallb (post_ok v fields) (c_post_rd k)) eqn:Epo; [|discriminate]. cbn [negb] in H.
      destruct (c_oversize_check k && _); [discriminate|]. injection H as <- <-.
      rewrite <- (firstn_skipn n r) in Hsmr. destruct (small_app _ _ Hsmr) as [Hsms _].
      destruct (rd_items_sound E v _ _ _ IH _ Hio [] _ fields leftover Hsms Ei)
        as (usedsub & body & Hsub & Hwff & Hbody & Hlb).
      apply (Hfin (firstn n r) (skipn n r) fields body); [symmetry; apply firstn_skipn| |assumption..].
      rewrite Hsub. apply twice_le_app, Hlb.
    + destruct (rd_items E v (rd E v f) [] _ r) as [[fields rest0]|] eqn:Ei; [|discriminate].
      destruct (forallb (post_ok v fields) (c_post_rd k)) eqn:Epo; [|discriminate]. injection H as <- <-.
      destruct (rd_items_sound E v _ _ _ IH _ Hio [] r fields rest0 Hsmr Ei)
        as (usedsub & body & Hsub & Hwff & Hbody & Hlb).
      exact (Hfin usedsub rest0 fields body Hsub Hlb Epo Hwff Hbody).
  - destruct (take_exact 3 bs) as [[tb rb]|]; [|discriminate].
    destruct (find_row E v t (be_dec tb)) as [k'|] eqn:Ef; [|discriminate].
    pose proof (find_row_tag_ok E v (env_ok_wr E HE) t _ k' Ef) as Htg.
    destruct (is_tagged k') eqn:Hnt; [discriminate|].
    destruct (rd E v f (be_dec tb) k' bs) as [[y r]|] eqn:Er; [|discriminate]. injection H as <- <-.
    destruct (IH (be_dec tb) k' bs y r (tag_ok_any _ _ Htg) Hsm Er) as (used & bs' & -> & [Hwf Hw] & Hl & Hty).
    exists used, bs'. split; [reflexivity|].
    cbn [wr wfv]. rewrite Ef, Hnt. repeat split; assumption.
Qed.

(* the statement the property asks for: for any byte string the decoder accepts,
   decode - encode - decode gives the same value as the first decode *)
Theorem dec_enc_dec_struct : In v VERSIONS ->
  forall fuel tag k bs x rest, tag_ok tag = true -> bytes_ok bs = true -> zlen bs < TWO31 ->
  rd E v fuel tag k bs = Some (x, rest) ->
  exists bs', wr E v fuel tag k x = Some bs' /\
              forall rest', rd E v fuel tag k (bs' ++ rest') = Some (x, rest').
Proof.
  intros Hv fuel tag k bs x rest Ht Hok Hs H.
  destruct (rd_sound fuel tag k bs x rest (tag_ok_any tag k Ht) (conj Hok Hs) H) as (_ & bs' & _ & [Hwf Hw] & _).
  exists bs'. split; [exact Hw|]. exact (roundtrip Hv fuel tag k x bs' Ht Hwf Hw).
Qed.

End Checked.

(* C03 - lemmas about the access choke points (Access.v).  What one step does is said once, by [step_item_cases]: it is
   refused and changes nothing, or every load of its handler ([loads]) was granted and [effect] says what follows.
   Histories are carried by the relation [evolves], one induction per level ([run_items_evolves], [run_evolves]). *)
From Coq Require Import ZArith List Bool String Lia.
From PK Require Import Policy.Policy Policy.PolicyProofs Policy.AccessTypes Policy.Access.
From PKGen Require Import HandlerAccessOps.
Import ListNotations.
Open Scope Z_scope.
Open Scope string_scope.

(* [step_item] is unfolded in three lemmas only: [unloaded_step] and [refused_step] (the exits before and at the load
   phase) and [step_item_cases].  [simpl] must leave it folded so that hypotheses about a step stay readable and
   [destruct (step_item ..)] finds its term.  This holds for every importer. *)
Arguments step_item : simpl never.

Lemma find_obj_some : forall u l o, find_obj u l = Some o -> In o l /\ o_uid o = u.
Proof.
  intros u l o H. unfold find_obj in H. apply find_some in H. destruct H as [Hin He].
  apply String.eqb_eq in He. auto.
Qed.

Lemma mem_true_iff : forall u l, mem u l = true <-> In u l.
Proof.
  intros. unfold mem. rewrite existsb_exists. split.
  - intros [x [Hin He]]. apply String.eqb_eq in He. now subst.
  - intro H. exists u. split; [exact H|apply String.eqb_refl].
Qed.

Lemma mem_false_iff : forall u l, mem u l = false <-> ~ In u l.
Proof. intros. rewrite <- mem_true_iff. symmetry. apply not_true_iff_false. Qed.

Lemma nodup_map_inj : forall A B (f : A -> B) l a b,
  NoDup (map f l) -> In a l -> In b l -> f a = f b -> a = b.
Proof.
  induction l as [|x l IH]; intros a b Hnd Ha Hb Hf; [destruct Ha|].
  simpl in Hnd. inversion Hnd as [|y ys Hnin Hnd']; subst.
  destruct Ha as [->|Ha], Hb as [->|Hb]; auto.
  - exfalso. apply Hnin. rewrite Hf. now apply in_map.
  - exfalso. apply Hnin. rewrite <- Hf. now apply in_map.
Qed.

Lemma find_obj_nodup : forall l o, NoDup (map o_uid l) -> In o l -> find_obj (o_uid o) l = Some o.
Proof.
  intros l o Hnd Hin. destruct (find_obj (o_uid o) l) as [o'|] eqn:E.
  - apply find_obj_some in E. destruct E as [Hin' He]. f_equal. eapply nodup_map_inj; eauto.
  - unfold find_obj in E. eapply find_none in E; eauto. rewrite String.eqb_refl in E. discriminate.
Qed.

Lemma map_filter_uid : forall u l, map o_uid (remove_uid u l) = filter (fun v => negb (String.eqb v u)) (map o_uid l).
Proof.
  induction l as [|x l IH]; simpl; [reflexivity|].
  destruct (negb (String.eqb (o_uid x) u)); simpl; now rewrite IH.
Qed.

Lemma in_uids_remove : forall v u l, In v (map o_uid (remove_uid u l)) <-> In v (map o_uid l) /\ v <> u.
Proof. intros. now rewrite map_filter_uid, filter_In, negb_true_iff, String.eqb_neq. Qed.

Lemma find_obj_remove_other : forall u v l, u <> v -> find_obj u (remove_uid v l) = find_obj u l.
Proof.
  intros u v l Hne. induction l as [|a l IH]; [reflexivity|]. simpl.
  destruct (String.eqb (o_uid a) v) eqn:Ev; simpl.
  - apply String.eqb_eq in Ev. destruct (String.eqb (o_uid a) u) eqn:Eu.
    + apply String.eqb_eq in Eu. congruence.
    + exact IH.
  - destruct (String.eqb (o_uid a) u); [reflexivity|exact IH].
Qed.

Lemma find_obj_remove_same : forall v l, find_obj v (remove_uid v l) = None.
Proof.
  intros v l. induction l as [|a l IH]; [reflexivity|]. simpl.
  destruct (String.eqb (o_uid a) v) eqn:Ev; simpl; [exact IH|]. rewrite Ev. exact IH.
Qed.

Lemma remove_uid_other : forall u l o, In o l -> o_uid o <> u -> In o (remove_uid u l).
Proof. intros u l o Hin Hne. apply filter_In. split; [exact Hin|]. now apply negb_true_iff, String.eqb_neq. Qed.

Lemma set_content_uids : forall u c l, map o_uid (set_content u c l) = map o_uid l.
Proof.
  intros u c l. induction l as [|a l IH]; simpl; [reflexivity|]. rewrite IH.
  destruct (String.eqb (o_uid a) u); reflexivity.
Qed.

Lemma set_content_other : forall u c l o, In o l -> o_uid o <> u -> In o (set_content u c l).
Proof.
  intros u c l o Hin Hne. unfold set_content. apply in_map_iff. exists o. split; [|exact Hin].
  destruct (String.eqb (o_uid o) u) eqn:E; [apply String.eqb_eq in E; contradiction|reflexivity].
Qed.

Lemma set_content_acl : forall u c l o', In o' (set_content u c l) -> exists o, In o l /\ same_acl o o'.
Proof.
  intros u c l o' Hin. unfold set_content in Hin. apply in_map_iff in Hin. destruct Hin as [o [He Hin]].
  exists o. split; [exact Hin|]. destruct (String.eqb (o_uid o) u); subst; unfold same_acl; simpl; auto.
Qed.

Lemma set_content_acl_fwd : forall u c l o, In o l -> exists o', In o' (set_content u c l) /\ same_acl o o'.
Proof.
  intros u c l o Hin. eexists. split; [unfold set_content; apply in_map; exact Hin|].
  destruct (String.eqb (o_uid o) u); unfold same_acl; simpl; auto.
Qed.

Lemma add_all_keeps : forall ns s w s' o, add_all s w ns = Some s' -> In o (objs s) -> In o (objs s').
Proof.
  induction ns as [|n t IH]; intros s w s' o Hadd Hin; simpl in Hadd.
  - inversion Hadd; now subst.
  - destruct (add_new s w n) as [s1|] eqn:E1; [|discriminate].
    eapply IH; [exact Hadd|]. unfold add_new in E1. destruct n as [[[u t0] p] c0].
    destruct (fresh s u); [|discriminate]. inversion E1; subst. simpl. apply in_or_app. now left.
Qed.

Lemma not_passed_failure : forall out, passed out = false -> is_failure out = true.
Proof. now intros []. Qed.

Lemma load1_inr : forall P id s op u o,
  load1 P id s op u = inr o ->
  exists us, u = Some us /\ find_obj us (objs s) = Some o /\ allowed_obj P id op o = true.
Proof.
  intros P id s op [us|] o H; simpl in H; [|discriminate].
  destruct (find_obj us (objs s)) as [o'|] eqn:Ef; [|discriminate].
  destruct (allowed_obj P id op o') eqn:Ea; [|discriminate].
  inversion H; subst. exists us. auto.
Qed.

Lemma load1_inl : forall P id s op u out, load1 P id s op u = inl out -> passed out = false.
Proof.
  intros P id s op [us|] out; simpl; [|now intros [= <-]].
  destruct (find_obj us (objs s)) as [o'|]; [destruct (allowed_obj P id op o')|]; now intros [= <-].
Qed.

Lemma mask_not_passed : forall g out, passed out = false -> passed (mask g out) = false.
Proof. now intros [|m]. Qed.

Lemma load_all_inl : forall P id s op g us cs out,
  load_all P id s op g us cs = inl out -> passed out = false.
Proof.
  induction us as [|u t IH]; intros cs out H; simpl in H; [discriminate|].
  destruct (load1 P id s op u) as [o1|o] eqn:E1.
  - inversion H; subst. apply mask_not_passed. eapply load1_inl; eauto.
  - destruct (negb (hd true cs)); [now inversion H|].
    destruct (load_all P id s op g t (tl cs)) as [o2|os] eqn:E2; [|discriminate].
    inversion H; subst. eapply IH; eauto.
Qed.

(* a load phase goes through when every single load does, and returns what they loaded *)
Lemma load_all_inr : forall P id s op g us cs os,
  load_all P id s op g us cs = inr os -> map (load1 P id s op) us = map inr os.
Proof.
  induction us as [|u t IH]; intros cs os H; simpl in H; [now inversion H|].
  destruct (load1 P id s op u) as [o1|o] eqn:E1; [discriminate|].
  destruct (negb (hd true cs)); [discriminate|].
  destruct (load_all P id s op g t (tl cs)) as [o2|os'] eqn:E2; [discriminate|].
  inversion H; subst. simpl. now rewrite E1, (IH _ _ E2).
Qed.

Lemma run_sites_inl : forall P id s ph r sites out,
  run_sites P id s ph r sites = inl out -> passed out = false.
Proof.
  induction sites as [|[src g op|op] t IH]; intros out H; simpl in H; [discriminate| |].
  - destruct (load_all P id s op g (site_uids src r ph) (site_checks src r)) as [o1|os] eqn:E1.
    + inversion H; subst. eapply load_all_inl; eauto.
    + destruct (run_sites P id s ph r t) as [o2|ld]; [|discriminate]. inversion H; subst. now apply IH.
  - destruct (run_sites P id s ph r t) as [o2|ld]; [|discriminate]. inversion H; subst. now apply IH.
Qed.

(* the single loads of a handler, in source order: (Operation constant, identifier) *)
Definition loads (sites : list site) (r : request) (ph : option string) : list (Z * option string) :=
  flat_map (fun st => match st with
                      | SLoad src _ op => map (pair op) (site_uids src r ph)
                      | SListAll _ => []
                      end) sites.

Lemma in_loads : forall sites r ph op u,
  In (op, u) (loads sites r ph) <-> exists src g, In (SLoad src g op) sites /\ In u (site_uids src r ph).
Proof.
  intros. unfold loads. rewrite in_flat_map. split.
  - intros [[src g op'|op'] [Hs Hin]]; [|destruct Hin]. apply in_map_iff in Hin.
    destruct Hin as [u' [E Hu]]. inversion E; subst. eauto.
  - intros [src [g [Hs Hu]]]. exists (SLoad src g op). split; [exact Hs|]. now apply in_map.
Qed.

(* when every site went through, every single load did, the loaded objects are theirs, and the listed objects are the
   rows the list sites' operations are granted for *)
Lemma run_sites_inr : forall P id s ph r sites ld,
  run_sites P id s ph r sites = inr ld ->
  map (fun p => load1 P id s (fst p) (snd p)) (loads sites r ph) = map inr (l_objs ld) /\
  l_listed ld = flat_map (fun st => match st with
                                    | SListAll op => filter (allowed_obj P id op) (objs s)
                                    | SLoad _ _ _ => []
                                    end) sites.
Proof.
  induction sites as [|[src g op|op] t IH]; intros ld H; simpl in H.
  - inversion H. auto.
  - destruct (load_all P id s op g (site_uids src r ph) (site_checks src r)) as [o1|os] eqn:E1; [discriminate|].
    destruct (run_sites P id s ph r t) as [o2|ld'] eqn:E2; [discriminate|].
    inversion H; subst. destruct (IH _ eq_refl) as [I1 I2]. split; [|exact I2].
    simpl. rewrite !map_app, I1, <- (load_all_inr _ _ _ _ _ _ _ _ E1), map_map. reflexivity.
  - destruct (run_sites P id s ph r t) as [o2|ld'] eqn:E2; [discriminate|].
    inversion H; subst. destruct (IH _ eq_refl) as [I1 I2]. simpl. now rewrite I1, I2.
Qed.

Lemma handler_of_inv : forall op h,
  handler_of op = Some h -> exists hn, zlookup op dispatch = Some hn /\ find_handler hn = Some h.
Proof.
  intros op h H. unfold handler_of in H. destruct (zlookup op dispatch) as [hn|]; [|discriminate].
  exists hn. auto.
Qed.

(* without a handler, or refused before the load phase, a request is answered without a look at the store *)
Lemma unloaded_step : forall P id s s0 ph r,
  (forall h, handler_of (r_op r) = Some h -> r_pre_ok r = false) ->
  fst (step_item P id (s, ph) r) = fst (step_item P id (s0, ph) r).
Proof.
  intros P id s s0 ph r H. unfold step_item, handler_of in *.
  destruct (zlookup (r_op r) dispatch) as [hn|]; [|reflexivity].
  destruct (find_handler hn) as [h|]; [|reflexivity]. now rewrite (H h eq_refl).
Qed.

(* a refusal at a choke point is the answer, and nothing changes *)
Lemma refused_step : forall P id s ph r h out,
  handler_of (r_op r) = Some h -> r_pre_ok r = true -> run_sites P id s ph r (h_sites h) = inl out ->
  step_item P id (s, ph) r = (out, (s, ph)).
Proof.
  intros P id s ph r h out Hh Hpre Hr. destruct (handler_of_inv _ _ Hh) as [hn [Ed Ef]].
  unfold step_item. now rewrite Ed, Ef, Hpre, Hr.
Qed.

Lemma first_site_refusal : forall P id s ph r h op rest u out,
  handler_of (r_op r) = Some h -> h_sites h = SLoad UPrimary GNone op :: rest -> r_pre_ok r = true ->
  resolve_primary r ph = Some u -> load1 P id s op (Some u) = inl out ->
  step_item P id (s, ph) r = (out, (s, ph)).
Proof.
  intros P id s ph r h op rest u out Hh Hs Hpre Hres Hl. apply (refused_step _ _ _ _ _ h); auto.
  rewrite Hs. cbn [run_sites site_uids load_all]. now rewrite Hres, Hl.
Qed.

(* text carried by a refusal *)
Definition out_text (o : outcome) : option string :=
  match o with ODenied m | ONotFound m => Some m | _ => None end.

(* What handler [h] does once all its loads [ld] were granted - as far as the rows, their access-control columns and
   their content go.  The placeholder after a creator and the oracle tests on [r_new] are not recorded: a property
   about them needs its own walk through [step_item]. *)
Inductive effect (id : identity) (s : store) (ph : option string) (r : request) (h : handler_info) (ld : loaded)
  : outcome -> state -> Prop :=
| EPostFail : effect id s ph r h ld OPostFail (s, ph)
| EStuck : effect id s ph r h ld OStuck (s, ph)
| EDelete : forall o rest, l_objs ld = o :: rest -> (0 < h_direct_queries h)%nat ->
    effect id s ph r h ld (OSuccess []) ({| objs := remove_uid (o_uid o) (objs s); dead := o_uid o :: dead s |}, ph)
| EAdd : forall s' ph', add_all s (id_user id) (r_new r) = Some s' -> (0 < h_adds h)%nat ->
    effect id s ph r h ld (OSuccess (map new_uid (r_new r))) (s', ph')
| EPlain : effect id s ph r h ld (OSuccess (located ld r)) (s, ph)
| EUpdate : forall o rest c, l_objs ld = o :: rest -> r_upd r = Some c -> In (r_op r) mutating_ops ->
    effect id s ph r h ld (OSuccess (located ld r)) ({| objs := set_content (o_uid o) c (objs s); dead := dead s |}, ph).

(* a step is refused and changes nothing - with a refusal text only when a choke point refused -, or every load of
   its handler was granted *)
Lemma step_item_cases : forall P id s ph r out st',
  step_item P id (s, ph) r = (out, st') ->
  (passed out = false /\ st' = (s, ph) /\
   (out_text out = None \/ exists h, handler_of (r_op r) = Some h /\ run_sites P id s ph r (h_sites h) = inl out)) \/
  exists h ld, handler_of (r_op r) = Some h /\ run_sites P id s ph r (h_sites h) = inr ld /\
               effect id s ph r h ld out st'.
Proof.
  intros P id s ph r out st'. unfold step_item, handler_of.
  destruct (zlookup (r_op r) dispatch) as [hn|]; [|intros [= <- <-]; left; auto].
  destruct (find_handler hn) as [h|]; [|intros [= <- <-]; left; auto].
  destruct (negb (r_pre_ok r)); [intros [= <- <-]; left; auto|].
  destruct (run_sites P id s ph r (h_sites h)) as [o1|ld] eqn:Er.
  - intros [= <- <-]. left. split; [eapply run_sites_inl; eauto|]. split; [reflexivity|]. right. exists h. auto.
  - intro H. right. exists h, ld. split; [reflexivity|]. split; [exact Er|]. revert H.
    destruct (negb (r_post_ok r)); [intros [= <- <-]; constructor|].
    destruct (Nat.ltb 0 (h_direct_queries h)) eqn:Eq.
    { apply Nat.ltb_lt in Eq. destruct (l_objs ld) as [|o rest] eqn:El; intros [= <- <-]; [constructor|].
      eapply EDelete; eauto. }
    destruct (Nat.ltb 0 (h_adds h)) eqn:Ea.
    { apply Nat.ltb_lt in Ea.
      destruct (Nat.eqb (List.length (r_new r)) (h_adds h) && Nat.eqb (h_owner_assignments h) (h_adds h));
        [|intros [= <- <-]; constructor].
      destruct (add_all s (id_user id) (r_new r)) as [s'|] eqn:Eadd; intros [= <- <-]; [|constructor].
      now apply EAdd. }
    destruct (existsb (Z.eqb (r_op r)) mutating_ops) eqn:Em; [|intros [= <- <-]; apply EPlain].
    destruct (l_objs ld) as [|o rest] eqn:El; [intros [= <- <-]; apply EPlain|].
    destruct (r_upd r) as [c|] eqn:Eu; intros [= <- <-]; [|apply EPlain].
    eapply EUpdate; eauto. apply existsb_exists in Em. destruct Em as [x [Hin Hx]]. apply Z.eqb_eq in Hx. now subst.
Qed.

Lemma loads_granted : forall P id s ph r h ld,
  handler_of (r_op r) = Some h -> run_sites P id s ph r (h_sites h) = inr ld ->
  forall o op, addressed r ph s o op -> allowed_obj P id op o = true.
Proof.
  intros P id s ph r h ld Hh Hr o op [h' [src [g [u [Hh' [Hs [Hu Hf]]]]]]].
  assert (h' = h) by congruence. subst. apply run_sites_inr in Hr. destruct Hr as [E _].
  assert (Hin : In (op, Some u) (loads (h_sites h) r ph)) by (apply in_loads; eauto).
  apply (in_map (fun p => load1 P id s (fst p) (snd p))) in Hin. rewrite E in Hin.
  apply in_map_iff in Hin. destruct Hin as [o' [Eo _]]. symmetry in Eo. apply load1_inr in Eo.
  destruct Eo as [us [Eu [Hf' Ha]]]. simpl in Eu, Ha. inversion Eu; subst. congruence.
Qed.

Lemma granted_no_text : forall P id s ph r out st' h ld,
  step_item P id (s, ph) r = (out, st') ->
  handler_of (r_op r) = Some h -> run_sites P id s ph r (h_sites h) = inr ld -> out_text out = None.
Proof.
  intros P id s ph r out st' h ld Hstep Hh Hr.
  destruct (step_item_cases _ _ _ _ _ _ _ Hstep) as [[_ [_ [Ht|[h' [Hh' Hr']]]]]|[h' [ld' [_ [_ E]]]]].
  - exact Ht.
  - congruence.
  - now destruct E.
Qed.

(* the row that has the identifier of a loaded object is addressed, under a grant *)
Lemma loaded_addressed : forall P id s ph r h ld o0 o,
  NoDup (uids s) -> handler_of (r_op r) = Some h -> run_sites P id s ph r (h_sites h) = inr ld ->
  In o0 (l_objs ld) -> In o (objs s) -> o_uid o = o_uid o0 ->
  exists op, addressed r ph s o op /\ allowed_obj P id op o = true.
Proof.
  intros P id s ph r h ld o0 o Hnd Hh Hr Hl Hin Hu.
  destruct (run_sites_inr _ _ _ _ _ _ _ Hr) as [E _].
  apply (in_map (@inr outcome obj)) in Hl. rewrite <- E in Hl. apply in_map_iff in Hl.
  destruct Hl as [[op u'] [Eo Hld]]. apply load1_inr in Eo. destruct Eo as [u [Eu [Hf _]]]. simpl in Eu. subst u'.
  apply in_loads in Hld. destruct Hld as [src [g [Hs Hus]]].
  assert (o0 = o) by (apply find_obj_some in Hf; eapply nodup_map_inj; eauto; tauto). subst o0.
  assert (Ha : addressed r ph s o op) by (exists h, src, g, u; auto).
  exists op. split; [exact Ha|]. eapply loads_granted; eauto.
Qed.

Lemma unchanged_or_granted_write : forall P id s ph r out s' ph',
  wf_store s ->
  step_item P id (s, ph) r = (out, (s', ph')) ->
  forall o, In o (objs s) ->
  In o (objs s') \/
  (is_failure out = false /\
   (In (r_op r) mutating_ops \/ exists h, handler_of (r_op r) = Some h /\ (0 < h_direct_queries h)%nat) /\
   exists op, addressed r ph s o op /\ allowed_obj P id op o = true).
Proof.
  intros P id s ph r out s' ph' [Hnd _] Hstep o Hin.
  destruct (step_item_cases _ _ _ _ _ _ _ Hstep) as [[_ [He _]]|[h [ld [Hh [Hr E]]]]]; [inversion He; subst; now left|].
  inversion E as [| |o0 rest El|s1 ph1 Hadd| |o0 rest c El Eu]; subst; auto.
  - (* Destroy: only the row of the loaded object goes *)
    destruct (String.eqb_spec (o_uid o) (o_uid o0)) as [Hu|Hne].
    + right. split; [reflexivity|]. split; [right; eauto|].
      eapply loaded_addressed; eauto. rewrite El. now left.
    + left. simpl. now apply remove_uid_other.
  - left. eapply add_all_keeps; eauto.
  - (* only the content of the loaded object is rewritten *)
    destruct (String.eqb_spec (o_uid o) (o_uid o0)) as [Hu|Hne].
    + right. split; [reflexivity|]. split; [now left|].
      eapply loaded_addressed; eauto. rewrite El. now left.
    + left. simpl. now apply set_content_other.
Qed.

Lemma failed_step_is_identity : forall P id s ph r out st',
  step_item P id (s, ph) r = (out, st') -> is_failure out = true -> st' = (s, ph).
Proof.
  intros P id s ph r out st' Hstep Hf.
  destruct (step_item_cases _ _ _ _ _ _ _ Hstep) as [[_ [He _]]|[h [ld [_ [_ E]]]]]; [exact He|].
  destruct E; try reflexivity; discriminate.
Qed.

Lemma all_failed_is_identity : forall P id cont rs s ph outs st',
  run_items P id cont (s, ph) rs = (outs, st') ->
  forallb is_failure outs = true -> st' = (s, ph).
Proof.
  induction rs as [|r t IH]; intros s ph outs st' H Hall; simpl in H.
  - now inversion H.
  - destruct (step_item P id (s, ph) r) as [out st1] eqn:E1.
    destruct (is_failure out && negb cont) eqn:Eb.
    + inversion H; subst. simpl in Hall. apply andb_true_iff in Hall. destruct Hall as [Hf _].
      eapply failed_step_is_identity; eauto.
    + destruct (run_items P id cont st1 t) as [outs2 st2] eqn:E2. inversion H; subst.
      simpl in Hall. apply andb_true_iff in Hall. destruct Hall as [Hf Hrest].
      rewrite (failed_step_is_identity _ _ _ _ _ _ _ E1 Hf) in E2. eapply IH; eauto.
Qed.

(* Locate (and any handler that only lists) answers with permitted objects only *)
Lemma listed_are_permitted : forall P id s ph r ids st' h,
  step_item P id (s, ph) r = (OSuccess ids, st') ->
  handler_of (r_op r) = Some h -> h_adds h = 0%nat ->
  forall u, In u ids ->
  exists o op, In o (objs s) /\ o_uid o = u /\ In (SListAll op) (h_sites h) /\ allowed_obj P id op o = true.
Proof.
  intros P id s ph r ids st' h Hstep Hh Ha u Hin.
  destruct (step_item_cases _ _ _ _ _ _ _ Hstep) as [[Hp _]|[h' [ld [Hh' [Hr E]]]]]; [discriminate|].
  assert (h' = h) by congruence. subst h'.
  assert (Hl : In u (map o_uid (l_listed ld))).
  { (* EDelete: ids = []; EAdd: excluded by h_adds h = 0; EPlain, EUpdate: ids = located ld r *)
    assert (Hl : In u (located ld r)) by (inversion E; subst; first [lia|contradiction|assumption]).
    unfold located in Hl. destruct (r_match r); [apply filter_In in Hl; tauto|exact Hl]. }
  apply in_map_iff in Hl. destruct Hl as [o [Hu Ho]].
  destruct (run_sites_inr _ _ _ _ _ _ _ Hr) as [_ A]. rewrite A in Ho. apply in_flat_map in Ho.
  destruct Ho as [[src g op|op] [Hs Ho]]; [destruct Ho|]. apply filter_In in Ho. exists o, op. tauto.
Qed.

Lemma same_acl_refl : forall o, same_acl o o.
Proof. intro o. unfold same_acl. auto. Qed.

Lemma same_acl_trans : forall a b c, same_acl a b -> same_acl b c -> same_acl a c.
Proof. unfold same_acl. intros a b c [A1 [A2 [A3 A4]]] [B1 [B2 [B3 B4]]]. repeat split; congruence. Qed.

(* How a store evolves into s': s' is well formed; an identifier s knows (of a row, or dead) stays known; a row of
   s' is a row of s with the same access-control columns (its content may have been rewritten), or it is new, with
   an identifier s does not know and an owner in W.  "New" is about known identifiers, not just those of rows, so that
   the relation composes: an identifier that was ever issued is never new again. *)
Definition evolves (W : user -> Prop) (s s' : store) : Prop :=
  wf_store s' /\ incl (uids s ++ dead s) (uids s' ++ dead s') /\
  (forall o', In o' (objs s') ->
     (exists o, In o (objs s) /\ same_acl o o') \/ (W (o_owner o') /\ ~ In (o_uid o') (uids s ++ dead s))).

Lemma evolves_refl : forall W s, wf_store s -> evolves W s s.
Proof.
  intros W s Hwf. split; [exact Hwf|]. split; [apply incl_refl|].
  intros o Hin. left. exists o. split; [exact Hin|apply same_acl_refl].
Qed.

Lemma evolves_trans : forall W a b c, evolves W a b -> evolves W b c -> evolves W a c.
Proof.
  intros W a b c [_ [K1 O1]] [Wc [K2 O2]]. split; [exact Wc|]. split; [eapply incl_tran; eauto|].
  intros o' Hin. destruct (O2 _ Hin) as [[o1 [H1 S1]]|[Hw Hn]]; [|right; split; [exact Hw|intro H; apply Hn, K1, H]].
  destruct (O1 _ H1) as [[o0 [H0 S0]]|[Hw0 Hn0]].
  - left. exists o0. split; [exact H0|eapply same_acl_trans; eauto].
  - right. destruct S1 as [E [_ [Eo _]]]. rewrite <- E, <- Eo. auto.
Qed.

Lemma evolves_weaken : forall (W W' : user -> Prop) s s',
  (forall w, W w -> W' w) -> evolves W s s' -> evolves W' s s'.
Proof.
  intros W W' s s' HW [Hwf [K O]]. repeat (split; [assumption|]).
  intros o' Hin. destruct (O _ Hin) as [H|[Hw Hn]]; auto.
Qed.

Lemma add_new_evolves : forall s w n s', wf_store s -> add_new s w n = Some s' -> evolves (eq w) s s'.
Proof.
  intros s w [[[u t] p] c] s' [Hnd Hdead] H. unfold add_new in H.
  destruct (fresh s u) eqn:Ef; [|discriminate]. inversion H; subst; clear H.
  unfold fresh in Ef. apply andb_true_iff in Ef. destruct Ef as [F1 F2].
  apply negb_true_iff in F1, F2. apply mem_false_iff in F1, F2.
  unfold evolves, wf_store, uids in *. simpl. rewrite map_app. simpl.
  split; [split|split].
  - apply (NoDup_Add (Add_app u (map o_uid (objs s)) [])). rewrite app_nil_r. auto.
  - intros v Hv Hin. apply in_app_or in Hin. destruct Hin as [Hin|[<-|[]]]; [eapply Hdead; eauto|contradiction].
  - intros v Hv. apply in_app_or in Hv. apply in_or_app. destruct Hv; [left; apply in_or_app; now left|now right].
  - intros o Hin. apply in_app_or in Hin. destruct Hin as [Hin|[<-|[]]].
    + left. exists o. split; [exact Hin|apply same_acl_refl].
    + right. split; [reflexivity|]. intro Hin. apply in_app_or in Hin. destruct Hin; contradiction.
Qed.

Lemma add_all_evolves : forall ns s w s', wf_store s -> add_all s w ns = Some s' -> evolves (eq w) s s'.
Proof.
  induction ns as [|n t IH]; intros s w s' Hwf H; simpl in H.
  - inversion H; subst. now apply evolves_refl.
  - destruct (add_new s w n) as [s1|] eqn:E1; [|discriminate].
    pose proof (add_new_evolves _ _ _ _ Hwf E1) as X1.
    eapply evolves_trans; [exact X1|]. apply IH; [apply X1|exact H].
Qed.

Lemma remove_evolves : forall W s u,
  wf_store s -> evolves W s {| objs := remove_uid u (objs s); dead := u :: dead s |}.
Proof.
  intros W s u [Hnd Hdead]. unfold evolves, wf_store, uids in *. simpl. split; [split|split].
  - rewrite map_filter_uid. now apply NoDup_filter.
  - intros v Hv. rewrite in_uids_remove. intros [Hin Hne]. destruct Hv as [Hv|Hv]; [congruence|eapply Hdead; eauto].
  - intros v Hv. apply in_or_app. destruct (string_dec v u) as [->|Hne]; [right; now left|].
    apply in_app_or in Hv. destruct Hv as [Hv|Hv]; [left; apply in_uids_remove; auto|right; now right].
  - intros o Hin. apply filter_In in Hin. left. exists o. split; [tauto|apply same_acl_refl].
Qed.

Lemma set_content_evolves : forall W s u c,
  wf_store s -> evolves W s {| objs := set_content u c (objs s); dead := dead s |}.
Proof.
  intros W s u c Hwf. unfold evolves, wf_store, uids in *. simpl. rewrite set_content_uids.
  split; [exact Hwf|]. split; [apply incl_refl|]. intros o Hin. left. exact (set_content_acl u c _ _ Hin).
Qed.

Lemma step_item_evolves : forall P id st r,
  wf_store (fst st) -> evolves (eq (id_user id)) (fst st) (fst (snd (step_item P id st r))).
Proof.
  intros P id [s ph] r Hwf. destruct (step_item P id (s, ph) r) as [out st'] eqn:Hstep. simpl.
  destruct (step_item_cases _ _ _ _ _ _ _ Hstep) as [[_ [-> _]]|[h [ld [_ [_ E]]]]]; [now apply evolves_refl|].
  destruct E; simpl; try (now apply evolves_refl).
  - now apply remove_evolves.
  - eapply add_all_evolves; eauto.
  - now apply set_content_evolves.
Qed.

Lemma run_items_evolves : forall P id cont rs st,
  wf_store (fst st) -> evolves (eq (id_user id)) (fst st) (fst (snd (run_items P id cont st rs))).
Proof.
  induction rs as [|r t IH]; intros st Hwf; simpl; [now apply evolves_refl|].
  pose proof (step_item_evolves P id st r Hwf) as X1.
  destruct (step_item P id st r) as [out st1]. simpl in X1.
  destruct (is_failure out && negb cont); [exact X1|].
  specialize (IH st1 (proj1 X1)). destruct (run_items P id cont st1 t) as [outs st2].
  eapply evolves_trans; eauto.
Qed.

Lemma process_request_evolves : forall P s q,
  wf_store s -> evolves (eq (id_user (q_id q))) s (snd (process_request P s q)).
Proof.
  intros P s q Hwf. unfold process_request.
  pose proof (run_items_evolves P (q_id q) (q_cont q) (q_items q) (s, None) Hwf) as X.
  destruct (run_items P (q_id q) (q_cont q) (s, None) (q_items q)) as [outs st]. exact X.
Qed.

Lemma run_evolves : forall P h s, wf_store s -> evolves (fun _ => True) s (run P s h).
Proof.
  induction h as [|q t IH]; intros s Hwf; simpl; [now apply evolves_refl|].
  pose proof (process_request_evolves P s q Hwf) as X1.
  eapply evolves_trans; [eapply evolves_weaken; [|exact X1]; auto|]. apply IH, X1.
Qed.

Lemma wf_empty : wf_store empty_store.
Proof. split; [constructor|intros ? []]. Qed.

Lemma reachable_wf : forall P h, wf_store (run P empty_store h).
Proof. intros. apply run_evolves, wf_empty. Qed.

(* C03 - loading a policy file preserves every access decision: [entry_load_eq_meaning] for one entry,
   [document_load_eq_meaning] for a document laid over any base store. *)
From Coq Require Import ZArith List Bool String.
From PK Require Import Policy.Policy Policy.PolicyProofs Policy.PolicyFile.
Import ListNotations.
Open Scope Z_scope.
Open Scope string_scope.

Lemma keep_lookup : forall A (f : dbody -> option A) pn n b,
  slookup pn (keep f (n, b)) = if String.eqb pn n then f b else None.
Proof.
  intros. unfold keep. simpl. destruct (f b); simpl; destruct (String.eqb pn n); reflexivity.
Qed.

Lemma load_body_none_iff : forall b, load_body b = None <-> meaning_body b = None.
Proof.
  intros [pre grp|s]; simpl.
  - destruct pre, grp; split; intro H; try discriminate; reflexivity.
  - destruct (is_nil s); split; intro H; try discriminate; reflexivity.
Qed.

(* One entry.  The loader drops an empty preset and an empty groups map; the engine treats an empty section like a
   missing one and an empty groups map like none, so it cannot tell the difference. *)
Lemma entry_load_eq_meaning : forall n b u g owner ot op,
  is_allowed (keep load_body (n, b)) n u g owner ot op = is_allowed (keep meaning_body (n, b)) n u g owner ot op.
Proof.
  intros n [pre grp|s] u g owner ot op; [|reflexivity]. unfold is_allowed, relevant_section, keep.
  destruct pre as [[|e p]|], grp as [[|e' q]|]; simpl; rewrite ?String.eqb_refl; destruct g; reflexivity.
Qed.

Lemma document_load_eq_meaning : forall d base pn u g owner ot op,
  is_allowed (overlay base (load_document d)) pn u g owner ot op
  = is_allowed (overlay base (document_meaning d)) pn u g owner ot op.
Proof.
  induction d as [|[n b] t IH]; intros base pn u g owner ot op; [reflexivity|].
  unfold overlay, load_document, document_meaning in *. cbn [flat_map].
  rewrite <- !app_assoc, (is_allowed_app (keep load_body (n, b))), (is_allowed_app (keep meaning_body (n, b))), !keep_lookup.
  destruct (String.eqb_spec pn n) as [->|_]; [|apply IH].
  destruct (load_body_none_iff b) as [N1 N2].
  destruct (load_body b), (meaning_body b); [apply entry_load_eq_meaning|discriminate (N2 eq_refl)|discriminate (N1 eq_refl)|apply IH].
Qed.

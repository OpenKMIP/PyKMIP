(* C03 - the generated tables against what the property demands.  Of the call table PKGen.HandlerAccessOps: every
   governed operation loads its primary object first, under the governing operation (one boolean check over
   governing_table, [governed_all]), and the sites of Locate, DeriveKey and Get are the ones the model was written
   against (equations between closed tables).  Of the built-in policies PKGen.DefaultPolicies: 'default' has no
   AllowAll on the [owner_only_types]. *)
From Coq Require Import ZArith List Bool String.
From PK Require Import Policy.Policy Policy.PolicyProofs Policy.AccessTypes Policy.Access Policy.AccessProofs
                       Policy.HandlerSpec.
From PKGen Require Import HandlerAccessOps DefaultPolicies.
Import ListNotations.
Open Scope Z_scope.
Open Scope string_scope.

Lemma formats_equal : denied_format = notfound_format.
Proof. reflexivity. Qed.

Definition governed_ok (p : Z * Z) : bool :=
  match handler_of (fst p) with
  | Some h => match h_sites h with SLoad UPrimary GNone op :: _ => Z.eqb op (snd p) | _ => false end
  | None => false
  end.

Lemma governed_all : forallb governed_ok governing_table = true.
Proof. vm_compute. reflexivity. Qed.

(* every operation that addresses a primary object loads it first, through the
   choke point, under the policy operation the property names *)
Lemma governed_primary : forall op g, In (op, g) governing_table ->
  exists h rest, handler_of op = Some h /\ h_sites h = SLoad UPrimary GNone g :: rest.
Proof.
  intros op g Hin. pose proof governed_all as H. rewrite forallb_forall in H.
  specialize (H _ Hin). unfold governed_ok in H. simpl in H.
  destruct (handler_of op) as [h|]; [|discriminate].
  destruct (h_sites h) as [|[[| |] [|m] o|o] rest] eqn:Es; try discriminate.
  apply Z.eqb_eq in H. subst. exists h, rest. auto.
Qed.

(* the sites of Locate, DeriveKey and Get as generated *)
Lemma locate_sites : exists h, handler_of (op_named "LOCATE") = Some h /\ h_sites h = [SListAll (op_named "LOCATE")]
                               /\ h_adds h = 0%nat.
Proof. exists (plain "_process_locate" [SListAll (op_named "LOCATE")]). vm_compute. repeat split. Qed.

Lemma derive_key_sites : exists h, handler_of (op_named "DERIVE_KEY") = Some h /\ h_sites h = [SLoad UEach GNone GET].
Proof. exists (creator "_process_derive_key" [SLoad UEach GNone GET] 1). vm_compute. repeat split. Qed.

Lemma get_sites : exists h, handler_of GET = Some h /\
  h_sites h = [SLoad UPrimary GNone GET; SLoad UWrapKey (GMaskNotFound "Wrapping key does not exist.") GET].
Proof.
  exists (plain "_process_get" [primary GET; SLoad UWrapKey (GMaskNotFound "Wrapping key does not exist.") GET]).
  vm_compute. repeat split.
Qed.

(* an operation governed by g on its primary object: refused with the not-found text unless g is granted *)
Lemma governed_denial : forall P id s ph r g u o,
  In (r_op r, g) governing_table -> r_pre_ok r = true ->
  resolve_primary r ph = Some u -> find_obj u (objs s) = Some o ->
  allowed_obj P id g o = false ->
  step_item P id (s, ph) r = (ODenied (render1 notfound_format u), (s, ph)).
Proof.
  intros P id s ph r g u o Hin Hpre Hres Hf Hden.
  destruct (governed_primary _ _ Hin) as [h [rest [Hh Hs]]].
  apply (first_site_refusal _ _ _ _ _ h g rest u); auto. simpl. rewrite Hf, Hden, formats_equal. reflexivity.
Qed.

Definition no_allow_all (om : opmap) : bool := forallb (fun e => negb (perm_eqb (snd e) AllowAll)) om.

Lemma no_allow_all_sound : forall om op, no_allow_all om = true -> zlookup op om <> Some AllowAll.
Proof.
  intros om op H E. apply zlookup_in in E. unfold no_allow_all in H. rewrite forallb_forall in H.
  specialize (H _ E). discriminate.
Qed.

(* under the built-in 'default' policy every operation on a symmetric key, private key, split key or
   secret data is allowed to the owner only *)
Definition owner_only_types : list Z := [2; 4; 5; 7].

Lemma default_owner_only_check :
  forallb (fun t => match zlookup t builtin_default_preset with Some om => no_allow_all om | None => true end)
          owner_only_types = true.
Proof. vm_compute. reflexivity. Qed.

Lemma builtin_default_owner_only : forall id owner ot op,
  In ot owner_only_types ->
  allowed_by_policy default_policies "default" id owner ot op = true -> id_user id = owner.
Proof.
  intros id owner ot op Hot H. apply allowed_iff_table in H.
  destruct H as [b [s [Eb [Hc [om [p [Eo [Ep [->|[_ Hu]]]]]]]]]]; [exfalso|exact Hu].
  cbn [default_policies slookup String.eqb Ascii.eqb Bool.eqb] in Eb. inversion Eb; subst b; clear Eb.
  destruct (consulted_cases _ _ _ Hc) as [Hp|[gm [g [Hg _]]]]; [|discriminate].
  inversion Hp; subst s; clear Hp.
  pose proof default_owner_only_check as C. rewrite forallb_forall in C. specialize (C _ Hot).
  unfold opmap in *. rewrite Eo in C. exact (no_allow_all_sound _ _ C Ep).
Qed.

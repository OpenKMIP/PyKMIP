(* C03 - lemmas about the access decision (Policy.v).  [allowed_iff_table] characterises [allowed_by_policy] by
   [table_spec], the grant read off the policy tables; default deny and soundness w.r.t. [granted_spec] follow from it.
   The decision depends on the store through the one entry under the policy name ([allowed_lookup_only]). *)
From Coq Require Import ZArith List Bool String.
From PK Require Import Policy.Policy.
Import ListNotations.
Open Scope Z_scope.
Open Scope string_scope.

Lemma user_eqb_eq : forall a b, user_eqb a b = true <-> a = b.
Proof.
  intros [a|] [b|]; simpl; split; intro H; try discriminate; try reflexivity.
  - apply String.eqb_eq in H. now subst.
  - inversion H. apply String.eqb_refl.
Qed.

Lemma user_eqb_refl : forall a, user_eqb a a = true.
Proof. intro a. now apply user_eqb_eq. Qed.

Lemma zlookup_some_not_nil : forall A k (l : list (Z * A)) v, zlookup k l = Some v -> is_nil l = false.
Proof. intros A k [|x l] v H; [discriminate|reflexivity]. Qed.

Lemma zlookup_in : forall A k (l : list (Z * A)) v, zlookup k l = Some v -> In (k, v) l.
Proof.
  induction l as [|[k' v'] t IH]; intros v H; simpl in H; [discriminate|].
  destruct (Z.eqb_spec k k'); [inversion H; subst; now left|right; auto].
Qed.

Lemma slookup_some_not_nil : forall A k (l : list (string * A)) v, slookup k l = Some v -> is_nil l = false.
Proof. intros A k [|x l] v H; [discriminate|reflexivity]. Qed.

(* the section the engine consults; a group section that is empty counts as missing *)
Lemma relevant_section_iff : forall P pn g s,
  relevant_section P pn g = Some s
  <-> exists b, slookup pn P = Some b /\ code_section b g s /\ (g <> None -> is_nil s = false).
Proof.
  intros P pn g s. unfold relevant_section. split.
  - destruct (slookup pn P) as [b|]; [|discriminate]. intro H. exists b. split; [reflexivity|].
    destruct (bundle_falsy b); [discriminate|]. destruct g as [gn|]; simpl.
    + destruct (groups b) as [gm|]; [|discriminate]. destruct (is_nil gm); [discriminate|].
      destruct (slookup gn gm) as [s'|] eqn:Es; [|discriminate].
      destruct (is_nil s') eqn:En; [discriminate|]. inversion H; subst. split; [exists gm|]; auto.
    + split; [exact H|]. intro Hn. now elim Hn.
  - intros [b [-> [Hc Hn]]]. unfold bundle_falsy. destruct g as [gn|]; simpl in Hc.
    + destruct Hc as [gm [Egm Es]]. rewrite Egm, (slookup_some_not_nil _ _ _ _ Es), Es, Hn by discriminate.
      destruct (preset b); reflexivity.
    + rewrite Hc. reflexivity.
Qed.

(* what [is_allowed] does with the section it found *)
Definition section_allows (s : section) (u owner : user) (ot op : Z) : bool :=
  match zlookup ot s with
  | None => false
  | Some om => if is_nil om then false
               else match zlookup op om with
                    | Some AllowAll => true | Some AllowOwner => user_eqb u owner | _ => false end
  end.

Lemma is_allowed_eq : forall P pn u g owner ot op,
  is_allowed P pn u g owner ot op
  = match relevant_section P pn g with Some s => section_allows s u owner ot op | None => false end.
Proof. reflexivity. Qed.

Lemma section_allows_iff : forall s u owner ot op,
  section_allows s u owner ot op = true <-> section_grants s u owner ot op.
Proof.
  intros. unfold section_allows, section_grants, perm_grants. split.
  - destruct (zlookup ot s) as [om|]; [|discriminate]. destruct (is_nil om); [discriminate|].
    destruct (zlookup op om) as [[| | |]|] eqn:Ep; try discriminate; intro H; eexists _, _; eauto.
    apply user_eqb_eq in H. eauto.
  - intros [om [p [-> [Ep Hg]]]]. rewrite (zlookup_some_not_nil _ _ _ _ Ep), Ep.
    destruct Hg as [->|[-> ->]]; [reflexivity|apply user_eqb_refl].
Qed.

Lemma section_grants_not_nil : forall s u o ot op, section_grants s u o ot op -> is_nil s = false.
Proof. intros s u o ot op [om [p [H _]]]. eapply zlookup_some_not_nil; eauto. Qed.

Lemma is_allowed_true_iff : forall P pn u g owner ot op,
  is_allowed P pn u g owner ot op = true <->
  exists b s, slookup pn P = Some b /\ code_section b g s /\ section_grants s u owner ot op.
Proof.
  intros. rewrite is_allowed_eq. split.
  - destruct (relevant_section P pn g) as [s|] eqn:Er; [|discriminate]. intro H.
    apply relevant_section_iff in Er. destruct Er as [b [Eb [Hc _]]].
    apply section_allows_iff in H. exists b, s. auto.
  - intros [b [s [Eb [Hc Hg]]]]. replace (relevant_section P pn g) with (Some s).
    + now apply section_allows_iff.
    + symmetry. apply relevant_section_iff. exists b. split; [exact Eb|]. split; [exact Hc|].
      intros _. eapply section_grants_not_nil; eauto.
Qed.

(* the decision looks at the store only through the entry under the policy name *)
Lemma is_allowed_lookup : forall P P' pn u g owner ot op,
  slookup pn P = slookup pn P' -> is_allowed P pn u g owner ot op = is_allowed P' pn u g owner ot op.
Proof. intros P P' pn u g owner ot op E. unfold is_allowed, relevant_section. now rewrite E. Qed.

Lemma allowed_ext : forall P P' pn id owner ot op,
  (forall g, is_allowed P pn (id_user id) g owner ot op = is_allowed P' pn (id_user id) g owner ot op) ->
  allowed_by_policy P pn id owner ot op = allowed_by_policy P' pn id owner ot op.
Proof.
  intros P P' pn id owner ot op H. unfold allowed_by_policy. destruct (id_groups id) as [gs|]; [|apply H].
  induction gs as [|g t IH]; simpl; [reflexivity|]. now rewrite H, IH.
Qed.

Lemma allowed_lookup_only : forall P P' pn id owner ot op,
  slookup pn P = slookup pn P' ->
  allowed_by_policy P pn id owner ot op = allowed_by_policy P' pn id owner ot op.
Proof. intros. apply allowed_ext. intro g. now apply is_allowed_lookup. Qed.

Lemma slookup_app : forall A k (a b : list (string * A)),
  slookup k (a ++ b) = match slookup k a with Some v => Some v | None => slookup k b end.
Proof.
  induction a as [|[k' v] t IH]; intros b; simpl; [reflexivity|].
  destruct (String.eqb k k'); [reflexivity|apply IH].
Qed.

Lemma is_allowed_app : forall P Q pn u g owner ot op,
  is_allowed (P ++ Q)%list pn u g owner ot op
  = match slookup pn P with Some _ => is_allowed P pn u g owner ot op | None => is_allowed Q pn u g owner ot op end.
Proof.
  intros. destruct (slookup pn P) eqn:E; apply is_allowed_lookup; rewrite slookup_app, E; reflexivity.
Qed.

(* exact characterisation of the decision: allowed iff the policy exists and a
   section the code consults for the requester (preset without group
   information; for a group g its group section)
   has an entry for type and operation that is AllowAll, or AllowOwner with
   requester = owner *)
Definition table_spec (P : policies) (pn : string) (id : identity) (owner : user) (ot op : Z) : Prop :=
  exists b s, slookup pn P = Some b /\
    (match id_groups id with
     | None => code_section b None s
     | Some gs => exists g, In g gs /\ code_section b (Some g) s
     end) /\ section_grants s (id_user id) owner ot op.

Lemma allowed_iff_table : forall P pn id owner ot op,
  allowed_by_policy P pn id owner ot op = true <-> table_spec P pn id owner ot op.
Proof.
  intros. unfold allowed_by_policy, table_spec. destruct (id_groups id) as [gs|].
  - rewrite existsb_exists. split.
    + intros [g [Hin H]]. apply is_allowed_true_iff in H. destruct H as [b [s [Eb [Hc Hg]]]].
      exists b, s. split; [exact Eb|]. split; [exists g; auto|exact Hg].
    + intros [b [s [Eb [[g [Hin Hc]] Hg]]]]. exists g. split; [exact Hin|].
      apply is_allowed_true_iff. exists b, s. auto.
  - apply is_allowed_true_iff.
Qed.

(* the sections of a bundle the engine consults for a requester: the [match] inside [table_spec] *)
Definition consulted (b : bundle) (id : identity) (s : section) : Prop :=
  match id_groups id with
  | None => code_section b None s
  | Some gs => exists g, In g gs /\ code_section b (Some g) s
  end.

Lemma consulted_cases : forall b id s, consulted b id s ->
  preset b = Some s \/ exists gm g, groups b = Some gm /\ slookup g gm = Some s.
Proof.
  intros b id s H. unfold consulted in H. destruct (id_groups id); [|left; exact H].
  destruct H as [g [_ [gm H]]]. right. exists gm, g. exact H.
Qed.

(* default deny: the policy is there, but no section consulted for the requester grants *)
Lemma denied_unless_consulted : forall P pn b id owner ot op,
  slookup pn P = Some b ->
  (forall s, consulted b id s -> ~ section_grants s (id_user id) owner ot op) ->
  allowed_by_policy P pn id owner ot op = false.
Proof.
  intros P pn b id owner ot op Eb H. apply not_true_iff_false. rewrite allowed_iff_table. intros [b' [s [Eb' [Hc Hg]]]].
  assert (b' = b) by congruence. subst. exact (H s Hc Hg).
Qed.

Lemma allowed_granted : forall P pn id owner ot op,
  allowed_by_policy P pn id owner ot op = true -> granted_spec P pn id owner ot op.
Proof.
  intros P pn id owner ot op H. apply allowed_iff_table in H.
  destruct H as [b [s [Eb [Hc Hg]]]]. exists b. split; [exact Eb|].
  destruct (id_groups id) as [gs|].
  - destruct Hc as [g [Hin [gm [Egm Es]]]]. left. exists g, gm, s. auto.
  - exists s. auto.
Qed.

(* witness for finding C03-empty-group-name (repaired in /repo by commit 512fea4): a policy with a permissive preset
   and a groups section; the requester's only group is "" - no group entry applies and the preset is not consulted:
   denied *)
Definition f11_policies : policies :=
  [("p", {| preset := Some [(2, [(10, AllowAll)])];
            groups := Some [("A", [(2, [(10, DisallowAll)])])] |})].
Definition f11_identity : identity := {| id_user := Some "bob"; id_groups := Some [""] |}.

(* the converse of soundness fails in the restrictive direction (DESIGN F10):
   group information present + policy with only a preset section -> denied,
   although granted_spec (and docs/source/server.rst) let the preset decide *)
Definition f10_policies : policies :=
  [("default", {| preset := Some [(2, [(10, AllowOwner)])]; groups := None |})].

(* the section has no entry for the object type, or has it without the operation, or holds anything but
   AllowAll, or AllowOwner for the requester *)
Definition section_silent (s : section) (u owner : user) (ot op : Z) : Prop :=
  zlookup ot s = None \/
  exists om, zlookup ot s = Some om /\
    (zlookup op om = None \/ zlookup op om = Some DisallowAll \/ zlookup op om = Some POther \/
     (zlookup op om = Some AllowOwner /\ u <> owner)).

Lemma silent_not_grants : forall s u owner ot op, section_silent s u owner ot op -> ~ section_grants s u owner ot op.
Proof.
  intros s u owner ot op Hs [om [p [Eo [Ep Hg]]]]. destruct Hs as [Hs|[om' [Eo' Hs]]]; [congruence|].
  assert (om' = om) by congruence. subst.
  destruct Hg as [->|[-> ->]]; destruct Hs as [Hs|[Hs|[Hs|[Hs Hne]]]]; congruence.
Qed.

Definition group_section_grants (P : policies) (pn g : string) (u owner : user) (ot op : Z) : Prop :=
  exists b gm s, slookup pn P = Some b /\ groups b = Some gm /\ slookup g gm = Some s /\
                 section_grants s u owner ot op.

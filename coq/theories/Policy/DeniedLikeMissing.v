(* C03 - a request is answered, as far as refusal texts go, as if the objects the
   requester has no grant for did not exist: at EVERY load site (primary object,
   wrapping key of Get, bases of DeriveKey, ID placeholder).  Start from [refusal_text_rel], which compares any
   two stores whose single loads agree up to [same_refusal]. *)
From Coq Require Import ZArith List Bool String.
From PK Require Import Policy.Policy Policy.PolicyProofs Policy.AccessTypes Policy.Access Policy.AccessProofs.
Import ListNotations.
Open Scope Z_scope.
Open Scope string_scope.

Definition without (o : obj) (s : store) : store :=
  {| objs := remove_uid (o_uid o) (objs s); dead := dead s |}.

(* results of a load phase in the two stores: both go on, or both refuse with the same text *)
Definition same_refusal {A B} (x : outcome + A) (y : outcome + B) : Prop :=
  match x, y with
  | inl a, inl b => out_text a = out_text b
  | inr _, inr _ => True
  | _, _ => False
  end.

Lemma mask_text : forall g a b, out_text a = out_text b -> out_text (mask g a) = out_text (mask g b).
Proof. intros [|m] a b H; simpl; auto. Qed.

Lemma load1_rel : forall P id s o op u,
  NoDup (uids s) -> In o (objs s) ->
  (u = Some (o_uid o) -> allowed_obj P id op o = false) ->
  same_refusal (load1 P id s op u) (load1 P id (without o s) op u).
Proof.
  intros P id s o op [us|] Hnd Hin Hden; simpl; [|reflexivity].
  destruct (String.eqb_spec us (o_uid o)) as [->|E].
  - rewrite (find_obj_nodup _ _ Hnd Hin), (Hden eq_refl), find_obj_remove_same. reflexivity.
  - rewrite (find_obj_remove_other _ _ _ E).
    destruct (find_obj us (objs s)) as [o'|]; [|reflexivity].
    destruct (allowed_obj P id op o'); reflexivity.
Qed.

Lemma load_all_rel : forall P id s s0 op g us cs,
  (forall u, In u us -> same_refusal (load1 P id s op u) (load1 P id s0 op u)) ->
  same_refusal (load_all P id s op g us cs) (load_all P id s0 op g us cs).
Proof.
  intros P id s s0 op g us. induction us as [|u t IH]; intros cs H; simpl; [exact I|].
  assert (L := H u (or_introl eq_refl)). unfold same_refusal in L.
  destruct (load1 P id s op u) as [a|a], (load1 P id s0 op u) as [b|b]; try contradiction.
  - simpl. now apply mask_text.
  - destruct (negb (hd true cs)); [reflexivity|].
    assert (IH' := IH (tl cs) (fun u' Hu => H u' (or_intror Hu))). unfold same_refusal in IH'.
    destruct (load_all P id s op g t (tl cs)), (load_all P id s0 op g t (tl cs)); simpl; auto.
Qed.

Lemma run_sites_rel : forall P id s s0 ph r sites,
  (forall src g op u, In (SLoad src g op) sites -> In u (site_uids src r ph) ->
                      same_refusal (load1 P id s op u) (load1 P id s0 op u)) ->
  same_refusal (run_sites P id s ph r sites) (run_sites P id s0 ph r sites).
Proof.
  intros P id s s0 ph r sites. induction sites as [|st t IH]; intro H; simpl; [exact I|].
  assert (IH' := IH (fun src' g' op' u Hs => H src' g' op' u (or_intror Hs))). unfold same_refusal in IH'.
  destruct st as [src g op|op].
  - assert (L := load_all_rel P id s s0 op g (site_uids src r ph) (site_checks src r)
                   (fun u Hu => H src g op u (or_introl eq_refl) Hu)). unfold same_refusal in L.
    destruct (load_all P id s op g (site_uids src r ph) (site_checks src r)),
             (load_all P id s0 op g (site_uids src r ph) (site_checks src r)); try contradiction; [exact L|].
    destruct (run_sites P id s ph r t), (run_sites P id s0 ph r t); simpl; auto.
  - destruct (run_sites P id s ph r t), (run_sites P id s0 ph r t); simpl; auto.
Qed.

(* The refusal text of a step depends on the store only through the single loads, and on those only up to
   [same_refusal]. *)
Lemma refusal_text_rel : forall P id s s0 ph r,
  (forall h src g op u, handler_of (r_op r) = Some h -> In (SLoad src g op) (h_sites h) ->
                        In u (site_uids src r ph) -> same_refusal (load1 P id s op u) (load1 P id s0 op u)) ->
  out_text (fst (step_item P id (s, ph) r)) = out_text (fst (step_item P id (s0, ph) r)).
Proof.
  intros P id s s0 ph r H.
  destruct (handler_of (r_op r)) as [h|] eqn:Hh; [|f_equal; apply unloaded_step; intros h Hh'; congruence].
  destruct (r_pre_ok r) eqn:Hpre; [|f_equal; apply unloaded_step; intros; exact Hpre].
  assert (R := run_sites_rel P id s s0 ph r (h_sites h) (fun src g op u => H h src g op u eq_refl)). unfold same_refusal in R.
  destruct (run_sites P id s ph r (h_sites h)) as [a|ld] eqn:E1,
           (run_sites P id s0 ph r (h_sites h)) as [b|ld'] eqn:E2; try contradiction.
  - now rewrite (refused_step _ _ _ _ _ _ _ Hh Hpre E1), (refused_step _ _ _ _ _ _ _ Hh Hpre E2).
  - rewrite (granted_no_text _ _ _ _ _ _ _ _ _ (surjective_pairing _) Hh E1).
    now rewrite (granted_no_text _ _ _ _ _ _ _ _ _ (surjective_pairing _) Hh E2).
Qed.

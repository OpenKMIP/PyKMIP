(* C09 - proofs about the transaction-log model of Txn.v.  What a crash leaves rests on op_cut: a cut of one
   operation's run holds nothing but writes, or the restarted server finds the post state; it is read off trace_shape
   (what trace_of is) and run_writes / run_no_commit (the machine), and atomic, durable and workload_crash follow.
   For `complete` start from writes_keep_complete / post_complete; for a refused COMMIT, from run_failed_commit. *)
From PK Require Import Crash.Txn.
From Coq Require Import ZArith List Bool Lia ZifyBool.
Import ListNotations.
Open Scope Z_scope.

Definition is_commit (e : event) : bool := match e with Commit => true | _ => false end.
Definition is_write (e : event) : bool := match e with Write _ => true | _ => false end.
Definition commits (tr : list event) : nat := length (filter is_commit tr).

Lemma run_app : forall a b m, run (a ++ b) m = run b (run a m).
Proof. intros; apply fold_left_app. Qed.

Lemma run_writes : forall ws d p, run (map Write ws) (mkMach d p) = mkMach d (p ++ ws).
Proof.
  induction ws as [|w ws IH]; intros d p; simpl.
  - now rewrite app_nil_r.
  - unfold run in *; simpl. rewrite IH. now rewrite <- app_assoc.
Qed.

Lemma run_no_commit : forall tr m, commits tr = 0%nat -> dur (run tr m) = dur m.
Proof.
  induction tr as [|e tr IH]; intros m H; [reflexivity|].
  destruct e; try discriminate H; exact (IH _ H).
Qed.

(* commits and count_acks both count the events of one kind *)
Lemma filter_writes_nil : forall (f : event -> bool) ws,
  (forall w, f (Write w) = false) -> length (filter f (map Write ws)) = 0%nat.
Proof. intros f ws F. induction ws as [|w ws IH]; simpl; [|rewrite F]; auto. Qed.

Lemma count_firstn : forall (f : event -> bool) k tr,
  (length (filter f (firstn k tr)) <= length (filter f tr))%nat.
Proof. intros. rewrite <- (firstn_skipn k tr) at 2. rewrite filter_app, app_length. lia. Qed.

Lemma acked_writes : forall ws, acked (map Write ws) = false.
Proof. induction ws; auto. Qed.

(* shape of every trace: all writes, then exactly one commit, then the acknowledgement - or no write and no commit *)
Lemma trace_shape : forall o s,
  (exists ws, writes_of o s = Some ws /\ trace_of o s = map Write ws ++ [Commit; Ack]) \/
  (writes_of o s = None /\ trace_of o s = [Rollback; Ack]).
Proof.
  intros o s. unfold trace_of. destruct (writes_of o s) as [ws|].
  - left. exists ws. split; reflexivity.
  - right. split; reflexivity.
Qed.

(* where each kind of event sits in a successful run *)
Lemma success_trace_positions : forall ws i e,
  nth_error (map Write ws ++ [Commit; Ack]) i = Some e ->
  match e with
  | Write _ => (i < length ws)%nat
  | Commit => i = length ws
  | Ack => i = S (length ws)
  | _ => False
  end.
Proof.
  intros ws i e H. destruct (Nat.lt_ge_cases i (length ws)) as [L|L].
  - rewrite nth_error_app1 in H by now rewrite map_length.
    apply nth_error_In, in_map_iff in H. destruct H as [w [<- _]]. exact L.
  - rewrite nth_error_app2, map_length in H by now rewrite map_length.
    destruct (i - length ws)%nat as [|[|[|n]]] eqn:E; inversion H; lia.
Qed.

Lemma one_commit : forall o s,
  commits (trace_of o s) = (if succeeds o s then 1%nat else 0%nat) /\
  (forall i j, nth_error (trace_of o s) j = Some Commit ->
               (exists w, nth_error (trace_of o s) i = Some (Write w)) -> (i < j)%nat) /\
  (forall i j, nth_error (trace_of o s) j = Some Commit ->
               nth_error (trace_of o s) i = Some Ack -> (j < i)%nat) /\
  count_acks (trace_of o s) = 1%nat.
Proof.
  intros o s. unfold succeeds, commits, count_acks.
  destruct (trace_shape o s) as [[ws [W ->]]|[W ->]]; rewrite W.
  - repeat split.
    + now rewrite filter_app, app_length, filter_writes_nil.
    + intros i j Hj [w Hi]. apply success_trace_positions in Hj, Hi. now subst j.
    + intros i j Hj Hi. apply success_trace_positions in Hj, Hi. subst i j. apply Nat.lt_succ_diag_r.
    + now rewrite filter_app, app_length, filter_writes_nil.
  - repeat split; intros i j Hj; apply nth_error_In in Hj; simpl in Hj; intuition discriminate.
Qed.

Lemma one_ack : forall o s, count_acks (trace_of o s) = 1%nat.
Proof. intros o s. apply one_commit. Qed.

Lemma recover_writes : forall ws s, recover (map Write ws) s = s.
Proof. intros. unfold recover. now rewrite run_writes. Qed.

Lemma cut_success : forall ws k,
  firstn k (map Write ws ++ [Commit; Ack]) = map Write (firstn k ws) \/
  firstn k (map Write ws ++ [Commit; Ack]) = map Write ws ++ [Commit] \/
  firstn k (map Write ws ++ [Commit; Ack]) = map Write ws ++ [Commit; Ack].
Proof.
  intros ws k. rewrite firstn_app, map_length, firstn_map.
  destruct (Nat.le_gt_cases k (length ws)) as [L|L].
  - left. replace (k - length ws)%nat with 0%nat by lia. apply app_nil_r.
  - right. rewrite (firstn_all2 ws) by lia.
    destruct (k - length ws)%nat as [|[|[|n]]] eqn:E; [lia|left|right|right]; reflexivity.
Qed.

(* process death at position k of the run of an operation: either only writes were issued, or the restarted server
   finds the state the complete run leaves *)
Lemma op_cut : forall o s k,
  (exists ws, crash_at k (trace_of o s) = map Write ws) \/ recover (crash_at k (trace_of o s)) s = post o s.
Proof.
  intros o s k. unfold crash_at, post, recover. destruct (trace_shape o s) as [[ws [W ->]]|[W ->]]; rewrite W.
  - destruct (cut_success ws k) as [E|[E|E]]; rewrite E; [left; eauto|right..].
    + rewrite run_app, run_writes. reflexivity.
    + rewrite run_app, run_writes. reflexivity.
  - right. destruct k as [|[|[|k]]]; reflexivity.
Qed.

Lemma atomic : forall o s k,
  recover (crash_at k (trace_of o s)) s = s \/ recover (crash_at k (trace_of o s)) s = post o s.
Proof.
  intros o s k. destruct (op_cut o s k) as [[ws ->]|R]; [left; apply recover_writes|right; exact R].
Qed.

Lemma durable : forall o s k,
  acked (crash_at k (trace_of o s)) = true -> recover (crash_at k (trace_of o s)) s = post o s.
Proof.
  intros o s k H. destruct (op_cut o s k) as [[ws E]|R]; [|exact R].
  rewrite E, acked_writes in H. discriminate H.
Qed.

(* a complete run leaves the machine with the post state durable and nothing pending *)
Lemma run_trace : forall o s, run (trace_of o s) (mkMach s []) = mkMach (post o s) [].
Proof.
  intros o s. unfold post. destruct (trace_shape o s) as [[ws [W ->]]|[W ->]]; rewrite W.
  - rewrite run_app, run_writes. reflexivity.
  - reflexivity.
Qed.

Lemma recover_app_complete : forall o s tr, recover (trace_of o s ++ tr) s = recover tr (post o s).
Proof. intros. unfold recover. rewrite run_app, run_trace. reflexivity. Qed.

(* crash anywhere in a workload: what is found is the state after a prefix of the operations, containing
   every acknowledged one and at most one more (the operation in flight) *)
Lemma workload_crash : forall ops s k,
  exists j, (j <= length ops)%nat /\
    recover (crash_at k (workload_trace ops s)) s = posts (firstn j ops) s /\
    (count_acks (crash_at k (workload_trace ops s)) <= j)%nat /\
    (j <= count_acks (crash_at k (workload_trace ops s)) + 1)%nat.
Proof.
  induction ops as [|o tl IH]; intros s k.
  - exists 0%nat. unfold crash_at. simpl. rewrite firstn_nil. repeat split; cbn; lia.
  - simpl workload_trace. unfold crash_at. rewrite firstn_app.
    pose proof (one_ack o s) as C. pose proof (count_firstn is_ack k (trace_of o s)) as A.
    destruct (Nat.le_gt_cases k (length (trace_of o s))) as [E|E].
    + replace (k - length (trace_of o s))%nat with 0%nat by lia. rewrite firstn_O, app_nil_r.
      destruct (op_cut o s k) as [[ws W]|R]; unfold crash_at in *.
      * exists 0%nat. rewrite W, recover_writes. unfold count_acks. rewrite filter_writes_nil by reflexivity. repeat split; cbn; lia.
      * exists 1%nat. rewrite R. unfold count_acks in *. repeat split; cbn; lia.
    + rewrite firstn_all2 by lia.
      destruct (IH (post o s) (k - length (trace_of o s))%nat) as [j [Hj [R [A1 A2]]]].
      unfold crash_at in *. exists (S j). rewrite recover_app_complete, R. unfold count_acks in *.
      rewrite filter_app, app_length, C. repeat split; cbn; lia.
Qed.

Lemma rows_apply_ins : forall rs s, rows (apply_writes (map WIns rs) s) = rows s ++ rs.
Proof.
  induction rs as [|r rs IH]; intros s; simpl.
  - now rewrite app_nil_r.
  - unfold apply_writes in *. simpl. rewrite IH. simpl. now rewrite <- app_assoc.
Qed.

Lemma has_app : forall t k a b, has t k (a ++ b) = has t k a || has t k b.
Proof. intros. unfold has. apply existsb_app. Qed.

Lemma fresh_not_has : forall s t k, fresh s = true -> t <= T_opaque -> next_uid s <= k -> has t k (rows s) = false.
Proof.
  intros s t k F Ht Hk. unfold fresh in F. rewrite forallb_forall in F.
  unfold has. apply not_true_is_false. intro H. apply existsb_exists in H.
  destruct H as [r [Hin Hr]]. specialize (F r Hin). unfold key_below in F. unfold at_key in Hr.
  destruct (r_tbl r <=? T_opaque) eqn:E; lia.
Qed.

Lemma has_base_rows : forall uid ot, has T_managed uid (base_rows uid ot) = true.
Proof. intros. unfold base_rows, has. simpl. unfold at_key. simpl. rewrite !Z.eqb_refl. reflexivity. Qed.

(* both halves of a key pair, or neither: wherever the run of CreateKeyPair is cut.  `fresh` is not shown to be kept
   by `post`, so inside a workload the hypothesis has to come from elsewhere. *)
Lemma keypair_atomic : forall valid a b s k,
  fresh s = true ->
  let r := recover (crash_at k (trace_of (OCreateKeyPair valid a b) s)) s in
  has_object (next_uid s) r = has_object (next_uid s + 1) r.
Proof.
  intros valid a b s k F r. subst r.
  assert (N : has_object (next_uid s) s = has_object (next_uid s + 1) s)
    by (unfold has_object; rewrite !fresh_not_has; auto; unfold T_managed, T_opaque; lia).
  destruct (atomic (OCreateKeyPair valid a b) s k) as [R|R]; rewrite R; [exact N|].
  unfold post, writes_of. destruct valid; [|exact N].
  unfold has_object. rewrite rows_apply_ins, !has_app.
  rewrite has_base_rows, (has_base_rows (next_uid s + 1) OT_private).
  now rewrite !orb_true_l, !orb_true_r.
Qed.

(* `complete` on a bare list of rows: the blocks an operation inserts are judged before they are in a store *)
Definition complete_rows (rs : list row) : bool := forallb (complete_row rs) rs.

Lemma complete_eq : forall s, complete s = complete_rows (rows s).
Proof. reflexivity. Qed.

Lemma class_tables_range : forall ot t, In t (class_tables ot) -> 1 <= t <= 10.
Proof.
  intros ot t H.
  assert (A : forallb (fun t => (1 <=? t) && (t <=? 10)) (class_tables ot) = true)
    by (unfold class_tables; repeat destruct (ot =? _); reflexivity).
  rewrite forallb_forall in A. apply A in H. lia.
Qed.

(* what complete_rows says, row by row *)
Lemma complete_rows_spec : forall rs,
  complete_rows rs = true <->
  (forall k ot t, In (T_managed, k, ot) rs -> In t (class_tables ot) -> has t k rs = true).
Proof.
  intros rs. unfold complete_rows, complete_row. rewrite forallb_forall. split.
  - intros H k ot t Hr Ht. specialize (H _ Hr). cbn in H. rewrite forallb_forall in H. exact (H t Ht).
  - intros H [[tb k] ot] Hr. cbn [r_tbl r_key r_val fst snd].
    destruct (tb =? T_managed) eqn:E; [|reflexivity]. apply Z.eqb_eq in E. subst tb.
    apply forallb_forall. intros t Ht. exact (H k ot t Hr Ht).
Qed.

Lemma complete_rows_app : forall a b, complete_rows a = true -> complete_rows b = true -> complete_rows (a ++ b) = true.
Proof.
  intros a b Ha Hb. apply complete_rows_spec. intros k ot t Hr Ht. rewrite has_app. apply orb_true_iff.
  apply in_app_or in Hr. destruct Hr; [left|right]; eapply complete_rows_spec; eauto.
Qed.

Lemma complete_base_rows : forall uid ot, complete_rows (base_rows uid ot) = true.
Proof.
  intros uid ot. apply complete_rows_spec. intros k ot' t [E|Hr] Ht.
  - inversion E; subst. unfold has, base_rows. cbn [existsb]. apply orb_true_iff. right.
    apply existsb_exists. eexists. split; [apply in_map, Ht|].
    unfold at_key. cbn. now rewrite !Z.eqb_refl.
  - apply in_map_iff in Hr. destruct Hr as [t0 [E Ht0]]. apply class_tables_range in Ht0.
    inversion E. unfold T_managed in *. lia.
Qed.

Lemma complete_name_rows : forall uid f n, complete_rows (name_rows uid f n) = true.
Proof.
  intros. apply complete_rows_spec. intros k ot t Hr. apply in_map_iff in Hr. destruct Hr as [i [E _]]. inversion E.
Qed.

Lemma complete_object_rows : forall uid ot f n, complete_rows (object_rows uid ot f n) = true.
Proof. intros. unfold object_rows. apply complete_rows_app; [apply complete_base_rows|apply complete_name_rows]. Qed.

Lemma complete_ins_rows : forall rs s, complete_rows (rows s) = true -> complete_rows rs = true ->
  complete_rows (rows (apply_writes (map WIns rs) s)) = true.
Proof. intros. rewrite rows_apply_ins. apply complete_rows_app; assumption. Qed.

(* a write that cannot orphan an object: it neither lists a new object nor removes a class row *)
Definition safe_write (w : write) : bool :=
  match w with
  | WIns r => negb (r_tbl r =? T_managed)
  | WUpd t _ _ => negb (t =? T_managed)
  | WDel t _ => (t =? T_managed) || (T_opaque <? t)
  | WTouch _ _ => true
  end.

Lemma has_map_upd : forall t k v t' k' rs,
  has t' k' (map (fun r => if at_key t k r then (t, k, v) else r) rs) = has t' k' rs.
Proof.
  intros. unfold has. induction rs as [|r rs IH]; simpl; [reflexivity|].
  rewrite IH. f_equal. destruct (at_key t k r) eqn:E; [|reflexivity].
  unfold at_key in *. simpl. apply andb_true_iff in E. destruct E as [E1 E2].
  apply Z.eqb_eq in E1. apply Z.eqb_eq in E2. rewrite E1, E2. reflexivity.
Qed.

Lemma has_filter_other : forall t k t' k' rs, t' <> t ->
  has t' k' (filter (fun r => negb (at_key t k r)) rs) = has t' k' rs.
Proof.
  intros. unfold has. induction rs as [|r rs IH]; simpl; [reflexivity|].
  destruct (at_key t k r) eqn:E; simpl.
  - rewrite IH. unfold at_key in *. apply andb_true_iff in E. destruct E as [E1 _].
    apply Z.eqb_eq in E1. rewrite E1.
    destruct (t =? t') eqn:E'; [apply Z.eqb_eq in E'; congruence|reflexivity].
  - rewrite IH. reflexivity.
Qed.

Lemma complete_safe_write : forall w s, safe_write w = true ->
  complete_rows (rows s) = true -> complete_rows (rows (apply_write s w)) = true.
Proof.
  intros w s Hw H. unfold apply_write. simpl rows. apply complete_rows_spec. intros k' ot t' Hr Ht'.
  pose proof (proj1 (complete_rows_spec _) H k' ot t') as C.
  destruct w as [r|t k v|t k|t k]; simpl in Hw; simpl apply_rows in Hr |- *.
  - rewrite has_app. apply in_app_or in Hr. destruct Hr as [Hr|[E|[]]]; [|subst r; discriminate Hw].
    now rewrite C.
  - rewrite has_map_upd. apply in_map_iff in Hr. destruct Hr as [r [E Hr]].
    destruct (at_key t k r); [inversion E; subst t; discriminate Hw|subst r; auto].
  - apply filter_In in Hr. destruct Hr as [Hr _]. rewrite has_filter_other; [auto|].
    apply class_tables_range in Ht'. unfold T_managed, T_opaque in Hw. lia.
  - auto.
Qed.

(* writes that keep every store complete; what every operation writes is of this kind *)
Definition keeps_complete (ws : list write) : Prop :=
  forall s, complete_rows (rows s) = true -> complete_rows (rows (apply_writes ws s)) = true.

Lemma keeps_ins : forall rs, complete_rows rs = true -> keeps_complete (map WIns rs).
Proof. intros rs Hr s H. now apply complete_ins_rows. Qed.

Lemma keeps_safe : forall ws, forallb safe_write ws = true -> keeps_complete ws.
Proof.
  induction ws as [|w ws IH]; intros Hs s H; [exact H|].
  simpl in Hs. apply andb_true_iff in Hs. destruct Hs as [Hw Hs].
  apply (IH Hs). apply complete_safe_write; assumption.
Qed.

Lemma attr_write_safe : forall w, attr_write w = true -> safe_write w = true.
Proof.
  intros [r|t k v|t k|t k]; unfold attr_write, attr_table, safe_write, T_names, T_appmap, T_managed, T_opaque; lia.
Qed.

Lemma keeps_attr : forall ws, forallb attr_write ws = true -> keeps_complete ws.
Proof.
  intros ws A. apply keeps_safe. rewrite forallb_forall in *. intros w Hw. apply attr_write_safe, A, Hw.
Qed.

Lemma keeps_app : forall a b, keeps_complete a -> keeps_complete b -> keeps_complete (a ++ b).
Proof. intros a b Ha Hb s H. unfold apply_writes. rewrite fold_left_app. apply Hb, Ha, H. Qed.

Lemma writes_keep_complete : forall o s,
  match writes_of o s with Some ws => keeps_complete ws | None => True end.
Proof.
  intros o s. assert (Obj := fun uid ot f n => keeps_ins _ (complete_object_rows uid ot f n)).
  destruct o; unfold writes_of.
  - destruct valid; [apply Obj|exact I].
  - destruct valid; [|exact I]. apply keeps_ins.
    apply complete_rows_app; [apply complete_base_rows|]. apply complete_rows_app; [apply complete_base_rows|].
    apply complete_rows_app; apply complete_name_rows.
  - destruct (valid && storable ot); [apply Obj|exact I].
  - destruct (valid && _); [apply Obj|exact I].
  (* Activate, Revoke, Destroy: every leaf of the guards is a refusal or a literal list of safe writes *)
  - destruct (live uid s), (lookup T_crypto uid (rows s)) as [st|]; repeat destruct (_ =? _); (exact I || now apply keeps_safe).
  - destruct (live uid s), (lookup T_crypto uid (rows s)) as [st|], compromise; repeat destruct (_ =? _);
      (exact I || now apply keeps_safe).
  - destruct (live uid s), (lookup T_crypto uid (rows s)) as [st|]; repeat destruct (_ =? _); (exact I || now apply keeps_safe).
  - destruct (valid && forallb attr_write ws) eqn:A; [|exact I]. apply andb_true_iff in A.
    apply keeps_app; [apply Obj|apply keeps_attr, A].
  - destruct (ok && forallb attr_write ws) eqn:A; [|exact I]. apply andb_true_iff in A. apply keeps_attr, A.
Qed.

Lemma post_complete : forall o s, complete s = true -> complete (post o s) = true.
Proof.
  intros o s. rewrite !complete_eq. unfold post. generalize (writes_keep_complete o s).
  destruct (writes_of o s) as [ws|]; [intros K; apply K|trivial].
Qed.

Lemma posts_complete : forall ops s, complete s = true -> complete (posts ops s) = true.
Proof.
  induction ops as [|o tl IH]; intros s H; [exact H|]. apply IH, post_complete, H.
Qed.

(* an operation whose COMMIT the database refuses leaves nothing behind, wherever the process dies - and it is not
   acknowledged as a success (failed_commit_acks_success is false unless there was nothing to write) *)
Lemma failed_commit_absent : forall o s k w ws,
  writes_of o s = Some (w :: ws) ->
  recover (crash_at k (trace_of_failed_commit o s)) s = s /\ failed_commit_acks_success o s = false.
Proof.
  intros o s k w ws W. unfold trace_of_failed_commit, failed_commit_acks_success. rewrite W. split; [|reflexivity].
  apply (run_no_commit _ (mkMach s [])), Nat.le_0_r. unfold crash_at, commits.
  etransitivity; [apply count_firstn|]. now rewrite filter_app, app_length, filter_writes_nil.
Qed.

(* after a refused COMMIT the machine is back where it started - durable state unchanged, nothing pending - so no
   later request, whatever it does, applies anything of the refused item *)
Lemma run_failed_commit : forall o s,
  run (trace_of_failed_commit o s) (mkMach s []) =
  mkMach (if failed_commit_acks_success o s then post o s else s) [].
Proof.
  intros o s. unfold trace_of_failed_commit, failed_commit_acks_success, post.
  destruct (writes_of o s) as [[|w ws]|]; try reflexivity.
  rewrite run_app, run_writes. reflexivity.
Qed.

(* rolling back and committing again after the refusal: acknowledged, nothing stored *)
Definition retry_trace (ws : list write) : list event := map Write ws ++ [CommitFail; Rollback; Commit; Ack].

Lemma retry_acks_nothing : forall ws s, recover (retry_trace ws) s = s /\ acked (retry_trace ws) = true.
Proof.
  intros ws s. unfold retry_trace, recover, acked. split.
  - rewrite run_app, run_writes. reflexivity.
  - rewrite existsb_app. simpl. apply orb_true_r.
Qed.

(* the run without the rollback after a refused COMMIT (old_failed_commit_trace; finding
   C09-refused-commit-left-pending in notes/C09.md): the next request's COMMIT makes the refused operation's changes durable together with its
   own - an operation answered with a failure is applied after all *)
Lemma old_refused_commit_applied_by_next : forall ws ws2 s,
  recover (old_failed_commit_trace ws ++ map Write ws2 ++ [Commit; Ack]) s = apply_writes (ws ++ ws2) s.
Proof.
  intros. unfold recover, old_failed_commit_trace. rewrite <- app_assoc, !run_app, run_writes. simpl.
  rewrite run_writes. reflexivity.
Qed.

(* Framing does not depend on how the transport chunks the stream: frames_of over any chunking equals `frames`
   on the concatenated stream (induction over the receive loop; no bound on stream, chunk or frame sizes).
   Each layer of the reader is specified by what it leaves of the stream: `concat cs = read ++ concat rest`
   (`conn_recv_spec`, `recv_loop_spec`, `receive_request_spec`, `frames_of_spec`). *)
From Coq Require Import ZArith List Bool Lia ZifyBool.
From PK Require Import Base.Bytes Base.BytesProofs Session.Framing.
Import ListNotations.
Open Scope Z_scope.

(* an empty read is the peer closing; Client/FramingProofs.v says the same of a whole transport with `chunks_ok` *)
Definition nonempty (c : bytes) : Prop := c <> [].

Lemma zlen_app' {A} (a b : list A) : zlen (a ++ b) = zlen a + zlen b.
Proof. apply zlen_app. Qed.

Lemma conn_recv_spec n cs :
  Forall nonempty cs -> 0 < n ->
  let (part, cs') := conn_recv n cs in
  part ++ concat cs' = concat cs /\ zlen part <= n /\ Forall nonempty cs' /\ (zlen part = 0 -> cs = []).
Proof.
  intros Hne Hn. destruct Hne as [|c rest Hc Hrest]; cbn [conn_recv].
  { split; [reflexivity|]. split; [cbn; lia | auto]. }
  assert (Hlen : (0 < length c)%nat) by (destruct c; [contradiction | cbn; lia]).
  destruct (zlen c <=? n) eqn:E; unfold zlen in *.
  - split; [reflexivity|]. split; [lia|]. split; [exact Hrest | lia].
  - split; [|split; [|split]].
    + cbn [concat]. rewrite app_assoc, firstn_skipn. reflexivity.
    + rewrite firstn_length. lia.
    + constructor; [apply skipn_nonempty; lia | exact Hrest].
    + rewrite firstn_length. lia.
Qed.

Lemma recv_loop_spec : forall fuel remaining cs,
  Forall nonempty cs -> (length (concat cs) < fuel)%nat ->
  match recv_loop fuel remaining cs with
  | Got m cs' _ => concat cs = m ++ concat cs' /\ zlen m = remaining /\ Forall nonempty cs'
  | Closed _ => zlen (concat cs) < remaining
  | Overrun _ => remaining < 0
  | NoFuel => False
  end.
Proof.
  induction fuel as [|f IH]; intros remaining cs Hne Hfuel; [lia|].
  cbn [recv_loop]. destruct (0 <? remaining) eqn:Epos.
  - pose proof (conn_recv_spec (Z.min remaining BUF) cs Hne) as Hrecv.
    destruct (conn_recv (Z.min remaining BUF) cs) as [part cs0].
    destruct Hrecv as (Hcat & Hle & Hne0 & Hnil); [unfold BUF; lia|].
    destruct (zlen part =? 0) eqn:Ez.
    + rewrite Hnil by lia. cbn. lia.
    + assert (Hf : (length (concat cs0) < f)%nat) by (rewrite <- Hcat, app_length in Hfuel; unfold zlen in Ez; lia).
      specialize (IH (remaining - zlen part) cs0 Hne0 Hf). rewrite <- Hcat, zlen_app.
      destruct (recv_loop f (remaining - zlen part) cs0) as [m cs' a | a | a |]; [| lia | lia | exact IH].
      destruct IH as (Hc & Hm & Hne').
      split; [rewrite Hc; apply app_assoc|]. split; [rewrite zlen_app; lia | exact Hne'].
  - destruct (remaining =? 0) eqn:E0; [|lia].
    split; [reflexivity|]. split; [cbn; lia | exact Hne].
Qed.

(* the length field of the first header on the stream, as `frames` reads it *)
Definition frame_size (s : bytes) : Z := be_dec (firstn 4 (skipn 4 s)).

Lemma frames_S f s :
  frames (S f) s =
  if zlen s <? 8 then [] else
  if frame_size s <? 0 then [] else
  if zlen s - 8 <? frame_size s then [] else
  firstn (Z.to_nat (8 + frame_size s)) s :: frames f (skipn (Z.to_nat (8 + frame_size s)) s).
Proof. reflexivity. Qed.

Lemma frames_stop f s : zlen s < 8 \/ frame_size s < 0 \/ zlen s - 8 < frame_size s -> frames (S f) s = [].
Proof.
  intro H. rewrite frames_S. destruct (zlen s <? 8) eqn:E1; [reflexivity|].
  destruct (frame_size s <? 0) eqn:E2; [reflexivity|].
  destruct (zlen s - 8 <? frame_size s) eqn:E3; [reflexivity | lia].
Qed.

Lemma frames_step f fr r :
  zlen fr = 8 + frame_size (fr ++ r) -> 0 <= frame_size (fr ++ r) -> frames (S f) (fr ++ r) = fr :: frames f r.
Proof.
  intros Hfr Hsz. rewrite frames_S, zlen_app. pose proof (zlen_nonneg r) as Hr.
  destruct (zlen fr + zlen r <? 8) eqn:E1; [lia|].
  destruct (frame_size (fr ++ r) <? 0) eqn:E2; [lia|].
  destruct (zlen fr + zlen r - 8 <? frame_size (fr ++ r)) eqn:E3; [lia|].
  rewrite firstn_app_exact, skipn_app_exact by (unfold zlen in Hfr; lia). reflexivity.
Qed.

(* the reader takes a frame off the stream exactly when the specification does; otherwise the connection is
   over, with ValueError only for a length field that reads as negative *)
Lemma receive_request_spec fuel cs :
  Forall nonempty cs -> (length (concat cs) < fuel)%nat ->
  let s := concat cs in
  match receive_request fuel cs with
  | Frame fr cs2 _ => s = fr ++ concat cs2 /\ zlen fr = 8 + frame_size s /\ 0 <= frame_size s /\ Forall nonempty cs2
  | NoFrame e _ => (e = EndClosed /\ (zlen s < 8 \/ zlen s - 8 < frame_size s)) \/ (e = EndValueError /\ frame_size s < 0)
  end.
Proof.
  intros Hne Hfuel s. subst s. unfold receive_request.
  pose proof (recv_loop_spec fuel 8 cs Hne Hfuel) as H1.
  destruct (recv_loop fuel 8 cs) as [h cs1 a1 | a | a |]; [| left; auto | lia | contradiction].
  destruct H1 as (Hs & Hh & Hne1).
  (* the length field read from the header is the one the specification reads from the stream *)
  assert (Hsz : be_dec (skipn 4 h) = frame_size (concat cs)).
  { unfold frame_size. rewrite (firstn_skipn_comm 4 4), Hs.
    rewrite firstn_app_exact by (unfold zlen in Hh; lia). reflexivity. }
  rewrite Hsz, Hs, zlen_app, Hh. rewrite Hs, app_length in Hfuel.
  assert (Hf1 : (length (concat cs1) < fuel)%nat) by lia.
  pose proof (recv_loop_spec fuel (frame_size (h ++ concat cs1)) cs1 Hne1 Hf1) as H2.
  destruct (recv_loop fuel (frame_size (h ++ concat cs1)) cs1) as [p cs2 a2 | a2 | a2 |]; [| | | contradiction].
  - destruct H2 as (Hs1 & Hp & Hne2).
    split; [rewrite Hs1; apply app_assoc|]. split; [rewrite zlen_app; lia|].
    split; [rewrite <- Hp; apply zlen_nonneg | exact Hne2].
  - left. split; [reflexivity|]. right. lia.
  - right. split; [reflexivity | exact H2].
Qed.

(* One induction for the whole connection: its frames are those of the byte stream, and a stream of bytes
   (values 0..255) ends with ConnectionClosed - neither the ValueError of _receive_bytes nor fuel exhaustion
   can happen.  `fuel0` bounds one receive loop, `fuel` the number of frames. *)
Lemma frames_of_spec : forall fuel fuel0 cs,
  Forall nonempty cs -> (length (concat cs) < fuel0)%nat ->
  fst (fst (frames_of fuel0 fuel cs)) = frames fuel (concat cs) /\
  ((length (concat cs) < fuel)%nat -> bytes_ok (concat cs) = true -> snd (frames_of fuel0 fuel cs) = EndClosed).
Proof.
  induction fuel as [|f IH]; intros fuel0 cs Hne Hf0; [split; [reflexivity | lia]|].
  cbn [frames_of]. pose proof (receive_request_spec fuel0 cs Hne Hf0) as H. cbv zeta in H.
  destruct (receive_request fuel0 cs) as [fr cs2 a | e a].
  - destruct H as (Hs & Hfr & Hsz & Hne2). rewrite Hs in *. rewrite app_length in *.
    specialize (IH fuel0 cs2 Hne2). destruct (frames_of fuel0 f cs2) as [[frs a'] e]. cbn [fst snd] in *.
    destruct IH as (IHf & IHe); [lia|]. split.
    + rewrite frames_step by assumption. f_equal. exact IHf.
    + intros Hf Hok. unfold zlen in Hfr. apply IHe; [lia|].
      rewrite <- (skipn_app_exact (length fr) fr (concat cs2) eq_refl). apply bytes_ok_firstn_skipn, Hok.
  - cbn [fst snd]. split; [rewrite frames_stop; [reflexivity | tauto]|].
    intros _ Hok. destruct H as [[-> _] | [_ Hneg]]; [reflexivity|].
    (* a length field made of bytes is not negative *)
    assert (0 <= frame_size (concat cs)); [|lia]. apply be_dec_bound.
    apply bytes_ok_firstn_skipn, bytes_ok_firstn_skipn, Hok.
Qed.

Theorem frames_conn_stream cs :
  Forall nonempty cs -> fst (fst (frames_conn cs)) = frames_stream (concat cs).
Proof. intro Hne. apply frames_of_spec; [exact Hne | unfold conn_fuel; lia]. Qed.

(* the sizes asked of recv during one receive loop *)
Definition asked_of (r : rres) : list Z :=
  match r with Got _ _ a | Closed a | Overrun a => a | NoFuel => [] end.

(* bounded reads: recv is never asked for more than the 4096-byte buffer, nor for more than is still missing *)
Theorem recv_asked_bounded : forall fuel remaining cs,
  Forall (fun n => 0 < n <= BUF /\ n <= remaining) (asked_of (recv_loop fuel remaining cs)).
Proof.
  induction fuel as [|f IH]; intros remaining cs; cbn [recv_loop];
    (destruct (0 <? remaining) eqn:E; [|destruct (remaining =? 0); apply Forall_nil]); [apply Forall_nil|].
  destruct (conn_recv (Z.min remaining BUF) cs) as [part cs'].
  assert (Hn : 0 < Z.min remaining BUF <= BUF /\ Z.min remaining BUF <= remaining) by (unfold BUF; lia).
  destruct (zlen part =? 0); [repeat constructor; lia|].
  (* the later requests are bounded by `remaining - zlen part`, hence by `remaining` *)
  assert (Hlater : Forall (fun n => 0 < n <= BUF /\ n <= remaining) (asked_of (recv_loop f (remaining - zlen part) cs'))).
  { eapply Forall_impl; [|apply IH]. cbv beta. pose proof (zlen_nonneg part). lia. }
  destruct (recv_loop f (remaining - zlen part) cs'); cbn [asked_of] in *; constructor; assumption.
Qed.

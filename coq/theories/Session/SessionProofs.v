(* The session model (C12 and C17): the error responses the session builds itself, one equation for the step
   (`handle_spec`) with what follows from it for the loop (`serve_cons`, `serve_Forall`, `serve_app`), and what
   `cert_checks`, `slugs_authenticate` and `run_plugins` do, from which props/C17.v characterises `establish`.
   The parser and the engine stay abstract (section variables): everything holds for every parser and every engine. *)
From Coq Require Import ZArith List Bool Lia ZifyBool String.
From PK Require Import Base.Bytes Base.BytesProofs Base.Prim Session.Encode Session.EncodeProofs Session.Session.
Import ListNotations.
Open Scope Z_scope.

(* encodable text, and short enough that the whole response stays under 232 bytes *)
Definition msg_fits (m : list Z) : bool := text_ok m && (zlen m + pad_len (zlen m) <=? 96).

Lemma msg_fits_ok m : msg_fits m = true -> msg_ok m /\ zlen m + pad_len (zlen m) <= 96.
Proof. unfold msg_fits, msg_ok, TWO31. pose proof (pad_len_range (zlen m)). lia. Qed.

Lemma fixed_msgs_fit :
  msg_fits MSG_CERT = true /\ msg_fits MSG_PARSE = true /\ msg_fits MSG_AUTH = true /\ msg_fits MSG_GENERAL = true
  /\ msg_fits MSG_TOO_LARGE = true /\ msg_fits MSG_ENCODE = true.
Proof. vm_compute. repeat split. Qed.

Lemma fixed_reasons_ok : reason_ok R_RESPONSE_TOO_LARGE /\ reason_ok R_AUTHENTICATION_NOT_SUCCESSFUL /\ reason_ok R_INVALID_MESSAGE /\ reason_ok R_GENERAL_FAILURE.
Proof. unfold reason_ok, TWO32. repeat split; vm_compute; congruence. Qed.

Lemma ver_ok_1_0 : ver_ok (1, 0).
Proof. split; cbn; unfold int32, TWO31; lia. Qed.

(* the six message texts of session.py *)
Definition is_fixed_msg (m : list Z) : Prop :=
  m = MSG_CERT \/ m = MSG_PARSE \/ m = MSG_AUTH \/ m = MSG_GENERAL \/ m = MSG_TOO_LARGE \/ m = MSG_ENCODE.

Lemma is_fixed_msg_fits m : is_fixed_msg m -> msg_fits m = true.
Proof.
  destruct fixed_msgs_fit as (A & B & C & D & E & F).
  intros [->|[->|[->|[->|[->| ->]]]]]; [exact A | exact B | exact C | exact D | exact E | exact F].
Qed.

Lemma small_fits_default n : n <= 232 -> (DEFAULT_MAX <? n) = false.
Proof. unfold DEFAULT_MAX. lia. Qed.

Lemma error_sent g v reason m :
  clock_ok (now g) -> ver_ok v -> reason_ok reason -> msg_fits m = true ->
  exists b, err_response v (now g) reason m = Some b /\ error g v reason m = Sent b
            /\ zlen b <= 232
            /\ dec_err_response b = Some {| ef_version := v; ef_ts := now g; ef_count := 1; ef_status := OPERATION_FAILED;
                                            ef_reason := reason; ef_msg := m |}.
Proof.
  intros Hc Hv Hr Hm. apply msg_fits_ok in Hm. destruct Hm as (Hm & Hs).
  destruct (err_response_wf v (now g) reason m Hv Hc Hr Hm) as (b & E & L & D).
  exists b. unfold error, send. rewrite E. repeat split; [lia | exact D].
Qed.

(* the shape in which C17 speaks of such an answer: it decodes to some version, reason and message with `P` *)
Lemma error_decodes g v reason m (P : Z * Z -> Z -> Prop) :
  clock_ok (now g) -> ver_ok v -> reason_ok reason -> msg_fits m = true -> P v reason ->
  exists b, error g v reason m = Sent b /\
    exists v reason m, dec_err_response b = Some {| ef_version := v; ef_ts := now g; ef_count := 1; ef_status := OPERATION_FAILED;
                                                 ef_reason := reason; ef_msg := m |} /\ P v reason.
Proof.
  intros Hc Hv Hr Hm HP. destruct (error_sent g v reason m Hc Hv Hr Hm) as (b & _ & E & _ & D).
  exists b. split; [exact E|]. exists v, reason, m. split; [exact D | exact HP].
Qed.

(* the two error responses sent without the size comparison are far below the default maximum *)
Theorem fixed_errors_small g reason m b :
  clock_ok (now g) -> reason_ok reason -> is_fixed_msg m ->
  err_response (1, 0) (now g) reason m = Some b -> zlen b <= 232 /\ (DEFAULT_MAX <? zlen b) = false.
Proof.
  intros Hc Hr Hm E.
  destruct (error_sent g (1, 0) reason m Hc ver_ok_1_0 Hr (is_fixed_msg_fits m Hm)) as (b' & E' & _ & L & _).
  rewrite E in E'. injection E' as <-. split; [exact L | exact (small_fits_default _ L)].
Qed.

Section Proofs.
  Variable request : Type.
  Variable parse : bytes -> option request.
  Variable rq_version : request -> Z * Z.
  Variable estate : Type.
  Variable engine : request -> identity -> estate -> eresult * estate.

  Notation handle := (handle request parse rq_version estate engine).
  Notation serve := (serve request parse rq_version estate engine).
  Notation reply := (reply request rq_version).

  (* what a failing path answers: certificate refused, request undecodable, authentication refused *)
  Definition failure_outcome (g : cfg) (f : bytes) : outcome :=
    match cert_checks g with
    | None => error g (1, 0) R_AUTHENTICATION_NOT_SUCCESSFUL MSG_CERT
    | Some c =>
        match parse f with
        | None => error g (1, 0) R_INVALID_MESSAGE MSG_PARSE
        | Some rq => reply g rq (err_response (rq_version rq) (now g) R_AUTHENTICATION_NOT_SUCCESSFUL MSG_AUTH) (rq_version rq) None
        end
    end.

  (* what is answered once the engine has returned *)
  Definition engine_outcome (g : cfg) (rq : request) (r : eresult) : outcome :=
    match r with
    | EResp enc max ver => reply g rq enc ver max
    | EKmipErr reason msg =>
        if text_ok msg then reply g rq (err_response (rq_version rq) (now g) reason msg) (rq_version rq) None else Escaped
    | ECrash => reply g rq (err_response (rq_version rq) (now g) R_GENERAL_FAILURE MSG_GENERAL) (rq_version rq) None
    end.

  (* The engine is entered exactly when an identity is established and the request decodes, with that identity
     and once; on every other path the state is untouched.  Everything C12 and C17 say about a single step is
     read off this equation. *)
  Lemma handle_spec g f st :
    handle g f st =
    match establish g, parse f with
    | Some id, Some rq =>
        ({| out := engine_outcome g rq (fst (engine rq id st)); call := Some id |}, snd (engine rq id st))
    | _, _ => ({| out := failure_outcome g f; call := None |}, st)
    end.
  Proof.
    unfold Session.handle, establish, failure_outcome. destruct (cert_checks g) as [c|]; [|reflexivity].
    destruct (parse f) as [rq|]; [|destruct (authenticate c (plugins g)); reflexivity].
    destruct (authenticate c (plugins g)) as [id|]; [|reflexivity].
    destruct (engine rq id st) as [[] st']; reflexivity.
  Qed.

  Lemma serve_cons g f fs st :
    serve g (f :: fs) st =
    (fst (handle g f st) :: fst (serve g fs (snd (handle g f st))), snd (serve g fs (snd (handle g f st)))).
  Proof.
    cbn [Session.serve]. destruct (handle g f st) as [s st1]. cbn [fst snd].
    destruct (serve g fs st1) as [ss st2]. reflexivity.
  Qed.

  (* what holds of every step holds of every step of the loop *)
  Lemma serve_Forall (P : step -> Prop) g :
    (forall f st, P (fst (handle g f st))) -> forall fs st, Forall P (fst (serve g fs st)).
  Proof.
    intros H fs. induction fs as [|f fs IH]; intro st; [constructor|].
    rewrite serve_cons. constructor; [apply H | apply IH].
  Qed.

  Theorem serve_length g fs : forall st, length (fst (serve g fs st)) = length fs.
  Proof.
    induction fs as [|f fs IH]; intro st; [reflexivity|].
    rewrite serve_cons. cbn [fst length]. rewrite IH. reflexivity.
  Qed.

  Lemma serve_app g fs1 : forall fs2 st,
    serve g (fs1 ++ fs2) st =
    (fst (serve g fs1 st) ++ fst (serve g fs2 (snd (serve g fs1 st))), snd (serve g fs2 (snd (serve g fs1 st)))).
  Proof.
    induction fs1 as [|f fs1 IH]; intros fs2 st.
    - cbn [app Session.serve fst snd]. destruct (serve g fs2 st); reflexivity.
    - rewrite <- app_comm_cons. rewrite !serve_cons. rewrite IH. cbn [fst snd]. reflexivity.
  Qed.

  (* frames that are not executed - undecodable, or no identity - leave no trace: whatever follows is served
     as if they had never been sent *)
  Theorem skipped_frames_no_trace g bad st :
    Forall (fun b => establish g = None \/ parse b = None) bad -> snd (serve g bad st) = st.
  Proof.
    induction 1 as [|b bad Hb _ IH]; [reflexivity|].
    rewrite serve_cons. cbn [snd]. replace (snd (handle g b st)) with st; [exact IH|].
    rewrite handle_spec. destruct Hb as [-> | ->]; [|destruct (establish g)]; reflexivity.
  Qed.

  Theorem next_request_unaffected g bad good st :
    Forall (fun b => parse b = None) bad ->
    serve g (bad ++ [good]) st =
    (fst (serve g bad st) ++ fst (serve g [good] st), snd (serve g [good] st))
    /\ length (fst (serve g bad st)) = length bad.
  Proof.
    intro H. split; [|apply serve_length].
    rewrite serve_app, skipped_frames_no_trace; [reflexivity|].
    eapply Forall_impl; [|exact H]. intros b Hb. right. exact Hb.
  Qed.

  (* the size comparison cannot fire on one of the session's own short error responses *)
  Lemma reply_own_error g rq v reason m :
    clock_ok (now g) -> ver_ok v -> reason_ok reason -> msg_fits m = true ->
    reply g rq (err_response v (now g) reason m) v None = error g v reason m.
  Proof.
    intros Hc Hv Hr Hm. destruct (error_sent g v reason m Hc Hv Hr Hm) as (b & E & Es & L & _).
    unfold Session.reply. rewrite E, Es. cbn [effective_max]. rewrite (small_fits_default _ L). reflexivity.
  Qed.

  (* Nothing but ConnectionClosed leaves the loop, under these hypotheses on the parser's and the engine's answers:
     `reply_sent` and `failure_outcome_decodes` need the first only, `handle_sends` all three. *)
  Section Sends.
  Hypothesis versions_ok : forall rq, ver_ok (rq_version rq).
  Hypothesis engine_versions_ok : forall rq id st enc max ver st', engine rq id st = (EResp enc max ver, st') -> ver_ok ver.
  Hypothesis engine_messages_ok : forall rq id st reason msg st', engine rq id st = (EKmipErr reason msg, st') -> text_ok msg = true.

  (* whatever was to be written, something is sent: the response, the too-large error, or the encoding-failure error *)
  Lemma reply_sent g rq enc respver max :
    clock_ok (now g) -> ver_ok respver -> exists b, reply g rq enc respver max = Sent b.
  Proof.
    intros Hc Hv. destruct fixed_msgs_fit as (_ & _ & _ & _ & MT & ME).
    destruct fixed_reasons_ok as (RT & _ & _ & RG).
    destruct (error_sent g (rq_version rq) R_RESPONSE_TOO_LARGE MSG_TOO_LARGE Hc (versions_ok rq) RT MT) as (bt & _ & Et & _).
    destruct (error_sent g respver R_GENERAL_FAILURE MSG_ENCODE Hc Hv RG ME) as (be & Ee & _).
    unfold Session.reply. rewrite Ee, Et.
    destruct enc as [b|]; [destruct (effective_max max <? zlen b) | destruct (effective_max max <? zlen be)]; eauto.
  Qed.

  (* with sane versions, the failure answers are exactly the AUTHENTICATION_NOT_SUCCESSFUL / INVALID_MESSAGE errors *)
  Theorem failure_outcome_decodes g f : clock_ok (now g) ->
    exists b, failure_outcome g f = Sent b /\
      exists v reason m, dec_err_response b = Some {| ef_version := v; ef_ts := now g; ef_count := 1; ef_status := OPERATION_FAILED;
                                                   ef_reason := reason; ef_msg := m |}
        /\ ((reason = R_AUTHENTICATION_NOT_SUCCESSFUL /\ (cert_checks g = None \/ exists rq, parse f = Some rq /\ v = rq_version rq))
            \/ (reason = R_INVALID_MESSAGE /\ parse f = None /\ cert_checks g <> None /\ v = (1, 0))).
  Proof.
    intro Hc. destruct fixed_msgs_fit as (MC & MP & MA & _). destruct fixed_reasons_ok as (_ & RA & RI & _).
    unfold failure_outcome. destruct (cert_checks g) as [c|] eqn:Ec; [destruct (parse f) as [rq|] eqn:Ep|].
    - rewrite (reply_own_error g rq _ _ _ Hc (versions_ok rq) RA MA).
      apply error_decodes; auto. left. split; [reflexivity|]. right. eauto.
    - apply error_decodes; auto using ver_ok_1_0. right. repeat split. discriminate.
    - apply error_decodes; auto using ver_ok_1_0.
  Qed.

  Theorem handle_sends g f st : clock_ok (now g) -> exists b, out (fst (handle g f st)) = Sent b.
  Proof.
    intro Hc. destruct (failure_outcome_decodes g f Hc) as (bf & Hf & _).
    rewrite handle_spec. destruct (establish g) as [id|], (parse f) as [rq|]; cbn [fst out]; eauto.
    destruct (engine rq id st) as [[enc max ver | reason msg |] st'] eqn:E; cbn [fst engine_outcome].
    - apply reply_sent; [exact Hc | exact (engine_versions_ok _ _ _ _ _ _ _ E)].
    - rewrite (engine_messages_ok _ _ _ _ _ _ E). apply reply_sent; auto.
    - apply reply_sent; auto.
  Qed.
  End Sends.
End Proofs.

(* the step depends on the engine only through its one answer *)
Theorem handle_engine_ext request parse rq_version estate engine1 engine2 g f st :
  (forall id rq, establish g = Some id -> parse f = Some rq -> engine1 rq id st = engine2 rq id st) ->
  handle request parse rq_version estate engine1 g f st = handle request parse rq_version estate engine2 g f st.
Proof.
  intro H. rewrite !handle_spec. destruct (establish g) as [id|], (parse f) as [rq|]; try reflexivity.
  rewrite (H id rq eq_refl eq_refl). reflexivity.
Qed.

(* a plugin block the session actually consults *)
Definition consulted (p : plugin) : bool := p_slugs p && p_enabled p.

(* the SLUGS service vouches for the (single) common name and supplies this group list *)
Definition vouches (p : plugin) (groups : option (list string)) : Prop :=
  p_url p = UrlString /\ p_user p = UStatus 200 /\ p_groups p = GStatus 200 (GJson groups).

Lemma cert_checks_spec g c :
  cert_checks g = Some c <-> peer g = Some c /\ (tls_client_auth g = true -> c_eku c = EkuClient).
Proof.
  unfold cert_checks. destruct (peer g) as [c'|]; [|split; [|intros [H _]]; discriminate].
  split.
  - intro H. destruct (tls_client_auth g); [destruct (c_eku c') eqn:E; try discriminate|];
      injection H as <-; split; auto; discriminate.
  - intros [H He]. injection H as ->. destruct (tls_client_auth g); [rewrite He|]; reflexivity.
Qed.

Lemma slugs_authenticate_spec c p id :
  slugs_authenticate c p = Some id <->
  exists user groups, id = (user, groups) /\ c_cns c = [user] /\ vouches p groups.
Proof.
  unfold slugs_authenticate, vouches, cn_identity. split.
  - intro H. destruct (p_url p); try discriminate.
    destruct (c_cns c) as [|u [|u2 r]]; try discriminate.
    destruct (p_user p) as [|code]; try discriminate.
    destruct (code =? 404) eqn:E1; try discriminate.
    destruct (code =? 200) eqn:E2; try discriminate.
    destruct (p_groups p) as [|gcode body]; try discriminate.
    destruct (gcode =? 404) eqn:E3; try discriminate.
    destruct (gcode =? 200) eqn:E4; try discriminate.
    destruct body as [|groups]; try discriminate. injection H as <-.
    apply Z.eqb_eq in E2, E4. subst. exists u, groups. auto.
  - intros (user & groups & -> & Hc & Hu & Hus & Hg). rewrite Hu, Hc, Hus, Hg. reflexivity.
Qed.

(* one block: skipped; or consulted, and then (unless its url is not a string, which aborts) it vouches, or it
   refuses and the search goes on with `plugin_enabled` set *)
Lemma run_plugins_cons c p rest en id :
  run_plugins c (p :: rest) en = Some id <->
  consulted p = false /\ run_plugins c rest en = Some id
  \/ consulted p = true /\ p_url p <> UrlNotString
     /\ (slugs_authenticate c p = Some id \/ slugs_authenticate c p = None /\ run_plugins c rest true = Some id).
Proof.
  cbn [run_plugins]. fold (consulted p). destruct (consulted p); split.
  - intro H. right. split; [reflexivity|].
    destruct (p_url p); try discriminate H; (split; [discriminate|]);
      (destruct (slugs_authenticate c p); [left; exact H | right; auto]).
  - intros [[K _] | (_ & Hu & H)]; [discriminate K|].
    destruct (p_url p); try contradiction; destruct H as [-> | (-> & H)]; auto.
  - auto.
  - intros [[_ H] | (K & _)]; [exact H | discriminate K].
Qed.

(* Plugins in order: some consulted block vouches; or none is consulted, and none has refused before (`en`), and
   the certificate's common name alone is the identity. *)
Lemma run_plugins_some c ps : forall en user groups,
  run_plugins c ps en = Some (user, groups) ->
  c_cns c = [user]
  /\ (en = false /\ Forall (fun p => consulted p = false) ps /\ groups = None
      \/ Exists (fun p => consulted p = true /\ vouches p groups) ps).
Proof.
  induction ps as [|p rest IH]; intros en user groups H.
  - cbn [run_plugins] in H. destruct en; [discriminate|]. unfold cn_identity in H.
    destruct (c_cns c) as [|u [|u2 r]]; try discriminate.
    injection H as -> <-. auto.
  - apply run_plugins_cons in H. destruct H as [(Hk & H') | (Hk & _ & [Hs | (_ & H')])].
    + destruct (IH _ _ _ H') as (Hc & [(Hen & Hall & Hg) | Hex]); auto 6.
    + apply slugs_authenticate_spec in Hs. destruct Hs as (u & gs & Hid & Hc & Hv). injection Hid as -> ->. auto.
    + destruct (IH _ _ _ H') as (Hc & [(Hen & _) | Hex]); [discriminate | auto].
Qed.

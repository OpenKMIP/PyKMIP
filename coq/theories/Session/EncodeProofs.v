(* The error response of the session is always encodable (given sane version numbers, clock and reason), has a
   known size, and reads back - with the primitive decoders of Base.Prim - as exactly one failed batch item
   carrying the version, time stamp, reason and message it was built from (`err_response_wf`). *)
From Coq Require Import ZArith List Bool Lia ZifyBool.
From PK Require Import Base.Bytes Base.BytesProofs Base.Prim Base.PrimProofs Session.Encode.
Import ListNotations.
Open Scope Z_scope.

(* what fits a TTLV Integer, a Date-Time, an Enumeration, a Text String (well-formed UTF-8) *)
Definition int32 (v : Z) : Prop := - TWO31 <= v < TWO31.
Definition ver_ok (v : Z * Z) : Prop := int32 (fst v) /\ int32 (snd v).
Definition clock_ok (ts : Z) : Prop := - TWO63 <= ts < TWO63.
Definition reason_ok (r : Z) : Prop := 0 <= r < TWO32.
Definition msg_ok (m : list Z) : Prop := text_ok m = true /\ zlen m < TWO31.

Lemma wf_int v : int32 v -> wf_prim any_enum (VInt v) = true.
Proof. unfold int32. cbn [wf_prim]. lia. Qed.
Lemma wf_date v : clock_ok v -> wf_prim any_enum (VDate v) = true.
Proof. unfold clock_ok. cbn [wf_prim]. lia. Qed.
Lemma wf_enum v : reason_ok v -> wf_prim any_enum (VEnum v) = true.
Proof. unfold reason_ok, any_enum. cbn [wf_prim]. lia. Qed.
Lemma wf_text m : msg_ok m -> wf_prim any_enum (VText m) = true.
Proof. cbn [wf_prim]. unfold msg_ok, TWO31, TWO32. lia. Qed.

Lemma struct_roundtrip tag b : tag_ok tag = true -> zlen b < TWO32 ->
  exists bs, enc_struct tag (Some b) = Some bs /\ zlen bs = 8 + zlen b
             /\ forall rest, dec_struct tag (bs ++ rest) = Some (b, rest).
Proof.
  intros Ht Hb. destruct (hdr_total tag STRUCT_CODE (zlen b)) as (h & Hh); [pose proof (zlen_nonneg b); lia|].
  assert (E : with_hdr tag STRUCT_CODE (zlen b) b = Some (h ++ b)) by (unfold with_hdr; rewrite Hh; reflexivity).
  exists (h ++ b). split; [exact E|]. split; [exact (with_hdr_len _ _ _ _ _ E) | exact (dec_struct_with_hdr tag b _ Ht E)].
Qed.

Theorem err_response_wf v ts reason msg :
  ver_ok v -> clock_ok ts -> reason_ok reason -> msg_ok msg ->
  exists b, err_response v ts reason msg = Some b
    /\ zlen b = 136 + zlen msg + pad_len (zlen msg)
    /\ dec_err_response b = Some {| ef_version := v; ef_ts := ts; ef_count := 1; ef_status := OPERATION_FAILED;
                                    ef_reason := reason; ef_msg := msg |}.
Proof.
  intros [Hma Hmi] Hts Hr Hmsg.
  destruct (prim_roundtrip any_enum T_VERSION_MAJOR (VInt (fst v)) eq_refl (wf_int _ Hma)) as (bma & Ema & Dma).
  destruct (prim_roundtrip any_enum T_VERSION_MINOR (VInt (snd v)) eq_refl (wf_int _ Hmi)) as (bmi & Emi & Dmi).
  destruct (prim_roundtrip any_enum T_TIME_STAMP (VDate ts) eq_refl (wf_date _ Hts)) as (bts & Ets & Dts).
  destruct (prim_roundtrip any_enum T_BATCH_COUNT (VInt 1) eq_refl eq_refl) as (bbc & Ebc & Dbc).
  destruct (prim_roundtrip any_enum T_RESULT_STATUS (VEnum OPERATION_FAILED) eq_refl eq_refl) as (brs & Ers & Drs).
  destruct (prim_roundtrip any_enum T_RESULT_REASON (VEnum reason) eq_refl (wf_enum _ Hr)) as (brr & Err & Drr).
  destruct (prim_roundtrip any_enum T_RESULT_MESSAGE (VText msg) eq_refl (wf_text _ Hmsg)) as (brm & Erm & Drm).
  pose proof (enc_prim_len _ _ _ Ema : zlen bma = 16) as Lma. pose proof (enc_prim_len _ _ _ Emi : zlen bmi = 16) as Lmi.
  pose proof (enc_prim_len _ _ _ Ets : zlen bts = 16) as Lts. pose proof (enc_prim_len _ _ _ Ebc : zlen bbc = 16) as Lbc.
  pose proof (enc_prim_len _ _ _ Ers : zlen brs = 16) as Lrs. pose proof (enc_prim_len _ _ _ Err : zlen brr = 16) as Lrr.
  pose proof (enc_prim_len _ _ _ Erm : zlen brm = 8 + zlen msg + pad_len (zlen msg)) as Lrm.
  destruct Hmsg as [_ Hlen]. pose proof (pad_len_range (zlen msg)) as Hpad. pose proof (zlen_nonneg msg) as Hmn.
  unfold TWO31 in Hlen.
  unfold err_response. rewrite Ema, Emi, Ets, Ebc, Ers, Err, Erm. cbn [cat2].
  (* the four structures, inside out; each is kept as an opaque byte string with its size and its reader *)
  destruct (struct_roundtrip T_PROTOCOL_VERSION (bma ++ bmi) eq_refl) as (bpv & Epv & Lpv & Dpv);
    [rewrite zlen_app, Lma, Lmi; reflexivity|].
  rewrite Epv. cbn [cat2]. rewrite zlen_app, Lma, Lmi in Lpv.
  destruct (struct_roundtrip T_RESPONSE_HEADER ((bpv ++ bts) ++ bbc) eq_refl) as (bh & Eh & Lh & Dh);
    [rewrite !zlen_app, Lpv, Lts, Lbc; reflexivity|].
  rewrite Eh. cbn [cat2]. rewrite !zlen_app, Lpv, Lts, Lbc in Lh.
  destruct (struct_roundtrip T_BATCH_ITEM ((brs ++ brr) ++ brm) eq_refl) as (bi & Ei & Li & Di);
    [rewrite !zlen_app, Lrs, Lrr, Lrm; unfold TWO32; lia|].
  rewrite Ei. cbn [cat2]. rewrite !zlen_app, Lrs, Lrr, Lrm in Li.
  destruct (struct_roundtrip T_RESPONSE_MESSAGE (bh ++ bi) eq_refl) as (bm & Em & Lm & Dm);
    [rewrite zlen_app, Lh, Li; unfold TWO32; lia|].
  rewrite Em. rewrite zlen_app, Lh, Li in Lm.
  exists bm. split; [reflexivity|]. split; [lia|].
  cbn [ptype_of] in Dma, Dmi, Dts, Dbc, Drs, Drr, Drm.
  unfold dec_err_response.
  rewrite (read_to_end _ _ _ Dm), (Dh bi).
  rewrite <- app_assoc, (Dpv (bts ++ bbc)), (Dma bmi), (read_to_end _ _ _ Dmi), (Dts bbc), (read_to_end _ _ _ Dbc).
  rewrite (read_to_end _ _ _ Di).
  rewrite <- app_assoc, (Drs (brr ++ brm)), (Drr brm), (read_to_end _ _ _ Drm).
  destruct v; reflexivity.
Qed.

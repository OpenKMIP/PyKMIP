(* C10 - the interleaving model of Interleave.v.  [abs] lets the lock owner finish; the invariant [Inv] says that [abs]
   of a state is the one-at-a-time run [seq_run] of the requests in the order they entered ([hist]), and [Reach] adds
   that the lock is held only by a thread inside process_request.  [reachable] (every state of a locked schedule from
   an [initial] state satisfies [Reach]) is the lemma to start from; [run_invariant] carries what every step preserves
   along a schedule.  That every item of a response was evaluated under its sender's identity and its request's
   version ([items_ok]) is a second invariant, kept by every micro-operation past the preamble.  Without the lock a
   schedule of two clients crosses identities ([unlocked_refuted]). *)
From PK Require Import Conc.Interleave.
From Coq Require Import ZArith List Bool Arith.
Import ListNotations.
Open Scope Z_scope.

Section WithCred.
Variable cred : nat -> Z.

Lemma upd_same : forall f t v, upd f t v t = v.
Proof. intros. unfold upd. now rewrite Nat.eqb_refl. Qed.

Lemma upd_other : forall f t v x, x <> t -> upd f t v x = f x.
Proof. intros. unfold upd. destruct (Nat.eqb_spec x t); [contradiction|reflexivity]. Qed.

Lemma upd_queue : forall f t r x, queue (upd f t (mkThread (queue (f t)) r) x) = queue (f x).
Proof. intros. unfold upd. destruct (Nat.eqb_spec x t) as [->|]; reflexivity. Qed.

Lemma finish_cons : forall m ms p, finish (m :: ms) p = finish ms (interp m p).
Proof. reflexivity. Qed.

Lemma seq_run_snoc : forall order p tr, seq_run cred (order ++ [tr]) p = exec1 cred (seq_run cred order p) tr.
Proof. intros. unfold seq_run. rewrite fold_left_app. reflexivity. Qed.

Lemma proj_snoc_same : forall t h r, proj t (h ++ [(t, r)]) = proj t h ++ [r].
Proof. intros. unfold proj. rewrite filter_app, map_app. simpl. rewrite Nat.eqb_refl. reflexivity. Qed.

Lemma proj_snoc_other : forall t t' h r, t <> t' -> proj t (h ++ [(t', r)]) = proj t h.
Proof.
  intros. unfold proj. rewrite filter_app, map_app. simpl.
  destruct (Nat.eqb_spec t' t); [congruence|]. apply app_nil_r.
Qed.

(* what holds of every step also holds of every schedule *)
Lemma run_invariant : forall (P : state -> Prop) locked,
  (forall s t s', P s -> step cred locked t s = Some s' -> P s') ->
  forall sched s s', P s -> run cred locked sched s = Some s' -> P s'.
Proof.
  intros P locked Hstep. induction sched as [|t tl IH]; intros s s' H R; simpl in R.
  - injection R as <-. exact H.
  - destruct (step cred locked t s) as [s1|] eqn:S; [|discriminate].
    eapply IH; [|exact R]. eapply Hstep; eassumption.
Qed.

(* To exhibit the outcome of a concrete schedule, evaluate what is claimed of it and not the state: the state's
   thread map is a tower of [upd] closures, large once normalised, and would be copied into the proof term. *)
Lemma run_some : forall locked sched s0 (P : state -> Prop),
  match run cred locked sched s0 with Some s => P s | None => False end ->
  exists s, run cred locked sched s0 = Some s /\ P s.
Proof. intros locked sched s0 P. destruct (run cred locked sched s0) as [s|]; [eauto|contradiction]. Qed.

(* the abstraction: let the lock owner finish *)
Definition abs (s : state) : shared * list entry :=
  match lock s with
  | None => (sh s, log s)
  | Some t =>
      match running (thr s t) with
      | Some (r, ms, l) => let (sh', l') := finish ms (sh s, l) in (sh', log s ++ [(t, r, l_out l')])
      | None => (sh s, log s)
      end
  end.

(* the abstraction is at most one response ahead of the log, and not ahead at all while the lock is free *)
Lemma abs_log : forall s, exists tail,
  snd (abs s) = log s ++ tail /\ (length tail <= 1)%nat /\ (lock s = None -> tail = [] /\ fst (abs s) = sh s).
Proof.
  intros s. unfold abs. destruct (lock s) as [t|].
  - destruct (running (thr s t)) as [[[r ms] l]|].
    + destruct (finish ms (sh s, l)) as [sh' l']. exists [(t, r, l_out l')]. simpl. split; [|split]; [reflexivity|auto|discriminate].
    + exists []. simpl. rewrite app_nil_r. split; [|split]; [reflexivity|auto|discriminate].
  - exists []. simpl. rewrite app_nil_r. auto.
Qed.

Record Inv (s0 s : state) : Prop := mkInv {
  inv_owner : forall t, running (thr s t) <> None -> lock s = Some t;
  inv_abs : abs s = seq_run cred (hist s) (sh s0, []);
  inv_merge : forall t, proj t (hist s) ++ queue (thr s t) = queue (thr s0 t) }.

Definition initial (s : state) : Prop :=
  lock s = None /\ log s = [] /\ hist s = [] /\ forall t, running (thr s t) = None.

Lemma inv_init : forall s, initial s -> Inv s s.
Proof.
  intros s [L [G [H R]]]. constructor.
  - intros t Ht. exfalso. apply Ht, R.
  - unfold abs. rewrite L, G, H. reflexivity.
  - intros t. rewrite H. reflexivity.
Qed.

(* [Inv] together with the converse of [inv_owner]: whoever holds the lock is inside process_request *)
Definition Reach (s0 s : state) : Prop :=
  Inv s0 s /\ forall t, lock s = Some t -> running (thr s t) <> None.

(* the heart of the matter: under the lock every step preserves the invariant *)
Opaque interp finish.
Lemma step_reach : forall s0 s t s', Reach s0 s -> step cred true t s = Some s' -> Reach s0 s'.
Proof.
  intros s0 s t s' [[Ho Ha Hm] Hh] Hs. unfold step in Hs.
  destruct (running (thr s t)) as [[[r ms] l]|] eqn:R.
  - (* the thread is inside process_request: it owns the lock *)
    assert (L : lock s = Some t) by (apply Ho; rewrite R; discriminate).
    destruct ms as [|m ms].
    + (* release *)
      injection Hs as <-. split; [constructor|]; simpl.
      * intros t' Ht'. exfalso. destruct (Nat.eq_dec t' t) as [->|Ne].
        -- rewrite upd_same in Ht'. now apply Ht'.
        -- rewrite upd_other in Ht' by exact Ne. apply Ho in Ht'. congruence.
      * rewrite <- Ha. unfold abs. simpl. rewrite L, R. reflexivity.
      * intros t'. rewrite upd_queue. apply Hm.
      * discriminate.
    + (* one micro-operation *)
      destruct (interp m (sh s, l)) as [sh' l'] eqn:I. injection Hs as <-. split; [constructor|]; simpl.
      * intros t' Ht'. destruct (Nat.eq_dec t' t) as [->|Ne]; [exact L|].
        rewrite upd_other in Ht' by exact Ne. apply Ho, Ht'.
      * rewrite <- Ha. unfold abs. simpl. rewrite L, R, upd_same. simpl.
        rewrite finish_cons, I. reflexivity.
      * intros t'. rewrite upd_queue. apply Hm.
      * intros t' Ht'. rewrite L in Ht'. injection Ht' as <-. rewrite upd_same. discriminate.
  - (* the thread is outside: it may enter only when the lock is free, and then nobody is inside *)
    destruct (queue (thr s t)) as [|r q] eqn:Q; [discriminate|].
    destruct (lock s) as [o|] eqn:L; unfold lock_free in Hs; rewrite L in Hs; simpl in Hs; [discriminate|].
    injection Hs as <-. split; [constructor|]; simpl.
    + intros t' Ht'. destruct (Nat.eq_dec t' t) as [->|Ne]; [reflexivity|].
      rewrite upd_other in Ht' by exact Ne. apply Ho in Ht'. congruence.
    + rewrite seq_run_snoc, <- Ha. unfold abs. simpl. rewrite L, upd_same. simpl.
      unfold exec1. simpl. destruct (finish (prog r (cred t)) (sh s, loc0)) as [sh' l']. reflexivity.
    + intros t'. destruct (Nat.eq_dec t' t) as [->|Ne].
      * rewrite upd_same, proj_snoc_same. simpl. rewrite <- app_assoc. simpl. rewrite <- Q. apply Hm.
      * rewrite upd_other by exact Ne. rewrite proj_snoc_other by exact Ne. apply Hm.
    + intros t' Ht'. injection Ht' as <-. rewrite upd_same. discriminate.
Qed.
Transparent interp finish.

Lemma reachable : forall sched s0 s, initial s0 -> run cred true sched s0 = Some s -> Reach s0 s.
Proof.
  intros sched s0 s I. apply (run_invariant (Reach s0) true (step_reach s0)).
  split; [apply inv_init, I|]. destruct I as [L _]. congruence.
Qed.

Definition final (s : state) : Prop := forall t, queue (thr s t) = [] /\ running (thr s t) = None.

(* EVERY schedule: responses and final store are those of serving the requests one at a time, in the order in
   which they entered process_request; that order contains each client's requests in the client's own order *)
Theorem locked_serializable : forall sched s0 s,
  initial s0 -> run cred true sched s0 = Some s -> final s ->
  (sh s, log s) = seq_run cred (hist s) (sh s0, []) /\
  forall t, proj t (hist s) = queue (thr s0 t).
Proof.
  intros sched s0 s I R F.
  destruct (reachable sched s0 s I R) as [[_ Ha Hm] _]. split.
  - rewrite <- Ha. unfold abs. destruct (lock s) as [t|]; [|reflexivity].
    destruct (F t) as [_ Rn]. rewrite Rn. reflexivity.
  - intros t. specialize (Hm t). destruct (F t) as [Q _]. rewrite Q, app_nil_r in Hm. exact Hm.
Qed.

Definition items_ok (c v : Z) (its : list item) : Prop := Forall (fun it => who_ok c it /\ ver_ok v it) its.

Definition loc_ok (c v : Z) (l : local) : Prop :=
  (l_who l = None \/ l_who l = Some c) /\ (l_vseen l = None \/ l_vseen l = Some v) /\ items_ok c v (l_out l).

Definition sh_ok (c v : Z) (s : shared) : Prop := s_ident s = c /\ s_ver s = v /\ s_apol s = v.

Definition pair_ok (c v : Z) (p : shared * local) : Prop := sh_ok c v (fst p) /\ loc_ok c v (snd p).

Definition body_mop (m : mop) : bool :=
  match m with MReset | MSetVersion _ | MSetIdent _ => false | _ => true end.

(* Past the preamble no micro-operation writes the identity or version fields, and whatever one records in the
   local (or emits from it) it has read from those fields.  The case analysis follows the branches of [interp]. *)
Lemma interp_body_ok : forall c v m p, body_mop m = true -> pair_ok c v p -> pair_ok c v (interp m p).
Proof.
  intros c v m [s l] Hb [[<- [<- Sa]] [A [B C]]]. simpl in Sa, A, B, C.
  destruct m; try discriminate Hb; simpl.
  all: repeat match goal with
              | |- pair_ok _ _ (match ?x with _ => _ end) => destruct x
              | |- pair_ok _ _ (_, match ?x with _ => _ end) => destruct x
              end.
  all: split; [repeat split; exact Sa|].
  all: unfold loc_ok, fail; simpl; rewrite ?Sa; auto.
  (* what is left is MEmit, which appends the item built from what the local recorded *)
  repeat split; auto. apply Forall_app. split; [exact C|]. constructor; [split; assumption|constructor].
Qed.

Lemma finish_body_ok : forall c v ms p, forallb body_mop ms = true -> pair_ok c v p -> pair_ok c v (finish ms p).
Proof.
  induction ms as [|m ms IH]; intros p Hb Hp; [exact Hp|].
  simpl in Hb. apply andb_true_iff in Hb. destruct Hb as [Hm Hms].
  rewrite finish_cons. apply IH; [exact Hms|]. apply interp_body_ok; assumption.
Qed.

Lemma body_ops : forall ops, forallb body_mop (flat_map prog_of_op ops ++ [MClose]) = true.
Proof.
  induction ops as [|o ops IH]; [reflexivity|].
  simpl. rewrite <- app_assoc, forallb_app. rewrite IH. destruct o; reflexivity.
Qed.

(* a request served alone evaluates every item under its sender's identity and its own version *)
Lemma exec_items_ok : forall r c s, items_ok c (r_ver r) (l_out (snd (finish (prog r c) (s, loc0)))).
Proof.
  intros r c s. unfold prog, finish. rewrite fold_left_app. simpl fold_left at 2.
  apply finish_body_ok; [apply body_ops|]. split; [repeat split|]. unfold loc_ok, items_ok. simpl. auto.
Qed.

Definition entry_ok (e : entry) : Prop := let '(t, r, its) := e in items_ok (cred t) (r_ver r) its.

Lemma seq_run_entries_ok : forall order p,
  Forall entry_ok (snd p) -> Forall entry_ok (snd (seq_run cred order p)).
Proof.
  induction order as [|[t r] tl IH]; intros p Hp; [exact Hp|].
  apply IH. unfold exec1. pose proof (exec_items_ok r (cred t) (fst p)) as K.
  destruct (finish (prog r (cred t)) (fst p, loc0)) as [s' l']. simpl.
  apply Forall_app. split; [exact Hp|]. constructor; [exact K|constructor].
Qed.

(* at every moment, not only at the end: no response handed back so far carries the identity or the version of a
   concurrently served session *)
Lemma log_never_crossed : forall s0 s, Inv s0 s -> Forall entry_ok (log s).
Proof.
  intros s0 s [_ Ha _]. destruct (abs_log s) as [tail [E _]].
  pose proof (seq_run_entries_ok (hist s) (sh s0, []) (Forall_nil _)) as K.
  rewrite <- Ha, E in K. apply Forall_app in K. apply K.
Qed.

(* never the identity or the version of a concurrently served session *)
Theorem identity_never_crossed : forall sched s0 s t r its it,
  initial s0 -> run cred true sched s0 = Some s -> final s ->
  In (t, r, its) (log s) -> In it its -> who_ok (cred t) it /\ ver_ok (r_ver r) it.
Proof.
  intros sched s0 s t r its it I R _ Hin Hit.
  destruct (reachable sched s0 s I R) as [HI _]. apply log_never_crossed in HI.
  rewrite Forall_forall in HI. specialize (HI _ Hin). simpl in HI.
  unfold items_ok in HI. rewrite Forall_forall in HI. apply HI, Hit.
Qed.

End WithCred.

(* two clients: 0 is alice (user 101, no groups: credential 1010) who owns object 1; 1 is bob (202 -> 2020) who asks for it *)
Definition cred2 (t : nat) : Z := match t with O => 1010 | _ => 2020 end.
Definition wit_store : shared := mkShared 0 12 12 0 false None [mkObj 1 101 1] 2.
Definition wit_queues (t : nat) : list req :=
  match t with
  | O => [mkReq 12 [QGet (Some 1)]]
  | S O => [mkReq 10 [QGet (Some 1)]]
  | _ => []
  end.
(* bob enters and passes the point where his identity is stored; alice enters, runs to completion (overwriting the
   identity field); bob continues: his policy check reads alice's identity and he is handed alice's key *)
Definition wit_sched : list nat :=
  [1; 1; 1; 1; 1; 1; 1; 1]%nat ++ [0; 0; 0; 0; 0; 0; 0; 0; 0; 0; 0; 0]%nat ++ [1; 1; 1; 1]%nat.

(* some item of some response in the log was evaluated under an identity other than its sender's: [who_ok] fails
   for it, which [log_never_crossed] excludes under the lock *)
Definition crossed (cred : nat -> Z) (s : state) : bool :=
  existsb (fun e => match e with (t, r, its) =>
     existsb (fun it => match i_who it with Some w => negb (w =? cred t) | None => false end) its end) (log s).

Theorem unlocked_refuted :
  exists s, run cred2 false wit_sched (init wit_store wit_queues) = Some s /\
            crossed cred2 s = true /\
            In (1%nat, mkReq 10 [QGet (Some 1)], [mkItem OP_get 0 1 0 (Some 1010) None]) (log s).
Proof.
  apply run_some. vm_compute. auto.
Qed.

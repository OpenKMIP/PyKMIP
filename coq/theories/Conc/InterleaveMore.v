(* C10 - consequences of [reachable] (InterleaveProofs.v) at EVERY moment of a locked schedule, not only when all
   clients are done:
   (1) the responses handed back so far are a prefix of the responses of the one-at-a-time execution in entry
       order, and at most one more response is outstanding;
   (2) the system never gets stuck: whenever some client still has work, some thread can step, and the lock is held
       only by a thread that is inside process_request (a lock is never left behind). *)
From PK Require Import Conc.Interleave Conc.InterleaveProofs.
From Coq Require Import ZArith List Bool.
Import ListNotations.
Open Scope Z_scope.

Section WithCred.
Variable cred : nat -> Z.

Theorem locked_prefix_serializable : forall sched s0 s,
  initial s0 -> run cred true sched s0 = Some s ->
  exists tail, snd (seq_run cred (hist s) (sh s0, [])) = (log s ++ tail)%list /\ (List.length tail <= 1)%nat /\
               (lock s = None -> tail = [] /\ fst (seq_run cred (hist s) (sh s0, [])) = sh s).
Proof.
  intros sched s0 s I R. destruct (reachable cred sched s0 s I R) as [[_ Ha _] _].
  rewrite <- Ha. apply abs_log.
Qed.

Theorem lock_never_left_behind : forall sched s0 s t,
  initial s0 -> run cred true sched s0 = Some s -> lock s = Some t -> running (thr s t) <> None.
Proof. intros sched s0 s t I R. apply (reachable cred sched s0 s I R). Qed.

(* when a thread can step: always while inside process_request, and from outside when the lock is free *)
Lemma step_running : forall locked t s, running (thr s t) <> None -> step cred locked t s <> None.
Proof.
  intros locked t s H. unfold step.
  destruct (running (thr s t)) as [[[r [|m ms]] l]|]; [discriminate| |contradiction].
  destruct (interp m (sh s, l)). discriminate.
Qed.

Lemma step_enter : forall locked t s,
  running (thr s t) = None -> queue (thr s t) <> [] -> lock s = None -> step cred locked t s <> None.
Proof.
  intros locked t s R Q L. unfold step, lock_free. rewrite R, L, andb_false_r.
  destruct (queue (thr s t)); [contradiction|discriminate].
Qed.

(* whoever still has something to do can be served: the lock owner can always step, and when nobody is inside
   every client with a queued request can enter *)
Theorem locked_no_deadlock : forall sched s0 s t,
  initial s0 -> run cred true sched s0 = Some s ->
  (queue (thr s t) <> [] \/ running (thr s t) <> None) ->
  exists t', step cred true t' s <> None.
Proof.
  intros sched s0 s t I R W. destruct (lock s) as [o|] eqn:L.
  - exists o. apply step_running. exact (lock_never_left_behind sched s0 s o I R L).
  - exists t. destruct (running (thr s t)) eqn:Rt.
    + apply step_running. rewrite Rt. discriminate.
    + destruct W as [W|W]; [|now elim W]. apply step_enter; assumption.
Qed.

End WithCred.

(* C13 - proofs about NoCrash/Model.v: which internal-error sites each operation can reach.
   `sites_ok P o` says that a Crash of `o` is at a site satisfying `P`.  Every building block of the handlers
   (rd, rd_or, rd_get1, q, unguarded, crypto, with_obj, build_core, set_attributes, ...) has one rule that
   derives `sites_ok P` of the block from `sites_ok P` of its continuations; a handler is proved by applying the
   rules along its guard sequence.  What the rules need to know about the generated tables (which class has which
   attribute, which rule set allows what, which site is listed for which operation) is a closed boolean that is
   evaluated where it is used, or once, for a sweep over a whole table.  `step_sites` collects the handlers; the
   theorems of props/C13.v are its corollaries. *)
From Coq Require Import ZArith List String Bool.
From PKGen Require Import AttrRuleTable PieClasses.
From PK Require Import NoCrash.Model.
Import ListNotations.
Open Scope string_scope.
Open Scope list_scope.
Open Scope Z_scope.

(* every stored object is an instance of the class KmipEngine._object_map gives for its object type *)
Definition wf_sobj (o : sobj) : Prop := class_of (so_otype o) = Some (so_class o).
Definition wf_store (s : store) : Prop := Forall wf_sobj s.

(* requests the protocol allows: DeriveKey names at least one object; a registered secret is one of the
   library-constructible shapes the conversion table covers *)
Definition wf_item (it : item) : Prop :=
  match it with
  | IDeriveKey _ uids _ _ _ => uids <> []
  | IRegister _ (Some sec) _ => convert sec <> None /\ class_of (sec_otype sec) <> None
  | _ => True
  end.

(* the crypto engine either succeeds or raises a KmipError *)
Definition crypto_total (cr : cres) : Prop := cr = COk \/ cr = CKmip.
(* the oracle is not CNotCalled: the harness recorded what the call did, possibly a non-KMIP exception *)
Definition crypto_observed (cr : cres) : Prop := cr <> CNotCalled.

Definition PS := "services/server/policy.py:".
Definition ES := "services/server/engine.py:".
(* a site is listed only while the code still has the defect (gen/PieClasses.defect_present / policy_unknown) *)
Definition active (n site : string) : list string := if defect n then [site] else [].
Definition pol (f : string) : list string :=
  match assoc_s f policy_unknown with Some (Some s) => [s] | _ => [] end.
(* the non-KMIP outcomes recorded in the generated conversion tables *)
Definition opt_sites (l : list (option string)) : list string :=
  flat_map (fun r => match r with Some s => if String.eqb s KMIP_ERROR then [] else [s] | None => [] end) l.
Definition convert_sites : list string :=
  opt_sites (map snd convert_key_table) ++ opt_sites (map snd convert_missing_table)
  ++ opt_sites (map snd convert_cert_table) ++ opt_sites (map snd convert_other_table).
Definition SET_ALG := (ES ++ "_set_attribute_on_managed_object:AttributeError(cryptographic_algorithm)")%string.
Definition SET_LEN := (ES ++ "_set_attribute_on_managed_object:AttributeError(cryptographic_length)")%string.

Definition op_sites (op : string) : list string :=
  if String.eqb op "REGISTER" then
    convert_sites
    ++ active "set-attribute-missing-field" SET_ALG ++ active "set-attribute-missing-field" SET_LEN
    ++ active "register-bigint-overflow" OVERFLOW_SITE
  else if String.eqb op "DERIVE_KEY" then
    active "derive-no-parameters" (ES ++ "_process_derive_key:AttributeError(hashing_algorithm)")%string
  else if String.eqb op "LOCATE" then
    pol "is_attribute_applicable_to_object_type"
    ++ active "get-attribute-missing-field" (ES ++ "_get_attribute_from_managed_object:AttributeError(cryptographic_algorithm)")%string
    ++ active "get-attribute-missing-field" (ES ++ "_get_attribute_from_managed_object:AttributeError(cryptographic_length)")%string
  else if String.eqb op "GET" then
    active "get-wrap-no-parameters" (ES ++ "_process_get:AttributeError(block_cipher_mode)")%string
    ++ active "get-wrap-non-key" (ES ++ "_process_get:AttributeError(key_block)")%string
  else if String.eqb op "GET_ATTRIBUTES" then
    active "get-attributes-empty-response" "core/messages/payloads/get_attributes.py:write:InvalidField"
  else if String.eqb op "MAC" then active "mac-stateless-object" (ES ++ "_process_mac:AttributeError(state)")%string
  else if String.eqb op "SET_ATTRIBUTE" then pol "is_attribute_multivalued"
  else if String.eqb op "MODIFY_ATTRIBUTE" then
    pol "is_attribute_modifiable_by_client"
    ++ active "modify-unsupported-multivalued" (ES ++ "_process_modify_attribute:TypeError")%string
  else if String.eqb op "DELETE_ATTRIBUTE" then
    pol "is_attribute_applicable_to_object_type"
    ++ active "delete-current-name" (ES ++ "_delete_attribute_from_managed_object:AttributeError(value)")%string
  else [].

(* "every Crash of o is at a site satisfying P" *)
Definition sites_ok (P : string -> Prop) (o : outcome) : Prop :=
  match o with Crash s => P s | _ => True end.

Definition allowed (op : string) (cr : cres) (site : string) : Prop :=
  mem_s site (op_sites op) = true \/ cr = CExc site.

(* is (op, site) a row of gen/PieClasses.known_finding_sites (generated from findings.d/C13.json) *)
Definition finding_listed (op site : string) : bool :=
  existsb (fun p => String.eqb (snd (fst p)) op && String.eqb (snd p) site) known_finding_sites.

Definition all_ops : list string :=
  ["CREATE"; "CREATE_KEY_PAIR"; "REGISTER"; "DERIVE_KEY"; "LOCATE"; "GET"; "GET_ATTRIBUTES"; "GET_ATTRIBUTE_LIST"; "ACTIVATE";
   "REVOKE"; "DESTROY"; "QUERY"; "DISCOVER_VERSIONS"; "ENCRYPT"; "DECRYPT"; "SIGN"; "SIGNATURE_VERIFY"; "MAC"; "SET_ATTRIBUTE";
   "MODIFY_ATTRIBUTE"; "DELETE_ATTRIBUTE"].

(* the request hits the signature of a recorded finding *)
Definition known_crash (v : version) (s : store) (cr : cres) (it : item) : bool :=
  match step v s cr it with Crash site => finding_listed (op_of it) site | _ => false end.

(* operations without any recorded site never reach the internal-error path *)
Definition clean_op (it : item) : bool := match op_sites (op_of it) with [] => true | _ => false end.

(* the operations whose op_sites is not empty for the generated defect_present / policy_unknown;
   clean_outside_dirty_now recomputes that, so re-introducing a repaired defect breaks it (as well as the grid) *)
Definition dirty_now : list string := ["GET_ATTRIBUTES"].

Lemma mem_s_In : forall x l, mem_s x l = true <-> In x l.
Proof.
  intros x l. unfold mem_s. rewrite existsb_exists. split.
  - intros [y [Hy E]]. apply String.eqb_eq in E. subst y. exact Hy.
  - intro H. exists x. split; [exact H | apply String.eqb_refl].
Qed.

Lemma sites_ok_impl : forall (P Q : string -> Prop) o, (forall s, P s -> Q s) -> sites_ok P o -> sites_ok Q o.
Proof. intros P Q o H. destruct o; simpl; auto. Qed.

Lemma ok_guard_eq : forall (P : string -> Prop) (c : bool) k, (c = false -> sites_ok P k) -> sites_ok P (if c then Done else k).
Proof. intros P c k H. destruct c; [exact I | exact (H eq_refl)]. Qed.

Lemma ok_guard : forall (P : string -> Prop) (c : bool) k, sites_ok P k -> sites_ok P (if c then Done else k).
Proof. intros. apply ok_guard_eq. auto. Qed.

(* `match x with Go => k | c => c end`: the guard sequence x, then k *)
Lemma ok_then : forall (P : string -> Prop) x k, sites_ok P x -> sites_ok P k ->
  sites_ok P (match x with Done => Done | Go => k | Crash site => Crash site end).
Proof. intros P x k Hx Hk. destruct x; auto. Qed.

Lemma ok_norm : forall (P : string -> Prop) o, sites_ok P o -> sites_ok P (match o with Go => Done | o' => o' end).
Proof. intros P o H. destruct o; auto. Qed.

Lemma ok_rd : forall (P : string -> Prop) func cls f k,
  (has_field cls f = false -> P (attr_err ENGINE func f)) -> sites_ok P k -> sites_ok P (rd func cls f k).
Proof. intros. unfold rd. destruct (has_field cls f); simpl; auto. Qed.

Lemma ok_rd_present : forall (P : string -> Prop) func cls f k,
  has_field cls f = true -> sites_ok P k -> sites_ok P (rd func cls f k).
Proof. intros. apply ok_rd; [congruence | assumption]. Qed.

Lemma ok_rd_or : forall (P : string -> Prop) n func cls f k k',
  (has_field cls f = false -> defect n = true -> P (attr_err ENGINE func f)) -> sites_ok P k -> sites_ok P k' ->
  sites_ok P (rd_or n func cls f k k').
Proof. intros. unfold rd_or. destruct (has_field cls f); auto. destruct (defect n) eqn:E; simpl; auto. Qed.

(* _get_attribute_from_managed_object: a missing algorithm or length is an internal error only while the defect is present *)
Lemma ok_rd_get1 : forall (P : string -> Prop) cls f k k',
  (has_field cls f = false ->
   (f = "cryptographic_algorithm" \/ f = "cryptographic_length" -> defect "get-attribute-missing-field" = true) ->
   P (attr_err ENGINE "_get_attribute_from_managed_object" f)) ->
  sites_ok P k -> sites_ok P k' -> sites_ok P (rd_get1 cls f k k').
Proof.
  intros P cls f k k' H Hk Hk'. unfold rd_get1. destruct (has_field cls f); [assumption|].
  destruct (defect "get-attribute-missing-field"); [apply H; auto|].
  destruct (String.eqb_spec f "cryptographic_algorithm"); [assumption|].
  destruct (String.eqb_spec f "cryptographic_length"); [assumption|].
  apply H; [reflexivity|]. intros [E|E]; contradiction.
Qed.

Lemma ok_unguarded : forall (P : string -> Prop) n site, (defect n = true -> P site) -> sites_ok P (unguarded n site).
Proof. intros. unfold unguarded. destruct (defect n) eqn:E; simpl; auto. Qed.

Lemma ok_crypto : forall op cr k, crypto_observed cr -> sites_ok (allowed op cr) k -> sites_ok (allowed op cr) (crypto cr k).
Proof. intros op cr k Hc Hk. unfold crypto. destruct cr; simpl; auto. - congruence. - right; reflexivity. Qed.

(* `guards` walks down a guard sequence: it splits on what the goal's outermost match or if looks at and closes the
   branches that have ended without a Crash.  (Syntactic on purpose: `exact I` alone would also evaluate `defect`.) *)
Ltac guards :=
  repeat match goal with
         | |- sites_ok _ Done => exact I
         | |- sites_ok _ Go => exact I
         | |- sites_ok _ (match ?x with _ => _ end) => destruct x
         end.

Lemma q_some : forall fname proj name k r, find_rule name = Some r -> q fname proj name k = k (proj r).
Proof. intros. unfold q. rewrite H. reflexivity. Qed.

Lemma ok_q : forall (P : string -> Prop) fname proj name k,
  (forall site, find_rule name = None -> assoc_s fname policy_unknown = Some (Some site) -> P site) ->
  (forall b, sites_ok P (k b)) -> sites_ok P (q fname proj name k).
Proof. intros. unfold q. destruct (find_rule name) eqn:E; auto.
  destruct (assoc_s fname policy_unknown) as [[site|]|] eqn:E2; simpl; auto. Qed.

Lemma find_rule_in : forall n r, find_rule n = Some r -> In r attr_rule_table /\ ar_name r = n.
Proof. unfold find_rule. intros n r H. apply find_some in H. destruct H as [H1 H2]. split; auto. apply String.eqb_eq; auto. Qed.

Lemma supported_has_rule : forall v n, q_supported v n = true -> exists r, find_rule n = Some r.
Proof. unfold q_supported. intros v n H. destruct (find_rule n) eqn:E; eauto. discriminate. Qed.

(* the site of an unguarded use is listed while its defect is present *)
Lemma listed_when : forall op cr n site,
  defect n = true -> implb (defect n) (mem_s site (op_sites op)) = true -> allowed op cr site.
Proof. intros op cr n site Hd H. rewrite Hd in H. left. exact H. Qed.

Lemma ok_unguarded_listed : forall op cr n site,
  implb (defect n) (mem_s site (op_sites op)) = true -> sites_ok (allowed op cr) (unguarded n site).
Proof. intros op cr n site H. apply ok_unguarded. intro Hd. exact (listed_when op cr n site Hd H). Qed.

Lemma policy_site_allowed : forall op cr fname site,
  assoc_s fname policy_unknown = Some (Some site) -> mem_s site (op_sites op) = true -> allowed op cr site.
Proof. intros. left. auto. Qed.

(* where the policy query `fname` raises on a name without a rule set, if it does, is listed *)
Definition pol_listed (op fname : string) : bool := forallb (fun site => mem_s site (op_sites op)) (pol fname).

(* a query either finds no rule set: it raises, or (pol fname = []) answers False; or it answers from the rule set r *)
Lemma ok_q_rule : forall op cr fname proj name k, pol_listed op fname = true ->
  (find_rule name = None -> pol fname = [] -> sites_ok (allowed op cr) (k false)) ->
  (forall r, find_rule name = Some r -> sites_ok (allowed op cr) (k (proj r))) ->
  sites_ok (allowed op cr) (q fname proj name k).
Proof.
  intros op cr fname proj name k Hl Hn Hr. unfold q. destruct (find_rule name) as [r|]; [auto|].
  unfold pol_listed, pol in *. destruct (assoc_s fname policy_unknown) as [[site|]|] eqn:E; auto.
  apply andb_true_iff in Hl. exact (policy_site_allowed op cr fname site E (proj1 Hl)).
Qed.

Definition pair_ok (otype : Z) (cls : string) : Prop := class_of otype = Some cls.

Lemma class_of_pair : forall otype cls, class_of otype = Some cls -> pair_ok otype cls.
Proof. auto. Qed.

Lemma assoc_z_in : forall A k (l : list (Z * A)) v, assoc_z k l = Some v -> In (k, v) l.
Proof.
  induction l as [|[a x] l IH]; simpl; intros v H; try discriminate.
  destruct (Z.eqb_spec k a). - inversion H; subst; auto. - right; auto.
Qed.

(* a boolean property of (object type, class) that holds of every row of _object_map holds of every well-formed object *)
Definition every_class (chk : Z -> string -> bool) : bool :=
  forallb (fun p => match snd p with Some c => chk (fst p) c | None => true end) object_map.

Lemma every_class_ok : forall chk, every_class chk = true -> forall ot cls, class_of ot = Some cls -> chk ot cls = true.
Proof.
  intros chk H ot cls Hp. unfold class_of in Hp.
  destruct (assoc_z ot object_map) as [c|] eqn:E; [subst c | discriminate].
  unfold every_class in H. rewrite forallb_forall in H. exact (H _ (assoc_z_in _ _ _ _ E)).
Qed.

(* the attribute is on every stored class *)
Definition common (f : string) : bool := every_class (fun _ c => has_field c f).
Lemma common_field : forall ot cls f, class_of ot = Some cls -> common f = true -> has_field cls f = true.
Proof. intros ot cls f Hp H. exact (every_class_ok (fun _ c => has_field c f) H ot cls Hp). Qed.

(* the attribute is on the class of every object type in ots *)
Definition on_types (ots : list Z) (f : string) : bool := every_class (fun ot c => implb (mem_z ot ots) (has_field c f)).
Lemma field_on_types : forall ots f ot cls,
  class_of ot = Some cls -> mem_z ot ots = true -> on_types ots f = true -> has_field cls f = true.
Proof.
  intros ots f ot cls Hp Hot H.
  pose proof (every_class_ok (fun ot c => implb (mem_z ot ots) (has_field c f)) H ot cls Hp) as K.
  cbv beta in K. rewrite Hot in K. exact K.
Qed.

(* a class counted as a key has an algorithm; a class with a state has a usage mask *)
Lemma key_class_has_algorithm : forall ot cls, class_of ot = Some cls ->
  implb (match assoc_s cls class_is_key with Some b => b | None => false end) (has_field cls "cryptographic_algorithm") = true.
Proof.
  apply (every_class_ok (fun _ c => implb (match assoc_s c class_is_key with Some b => b | None => false end)
                                          (has_field c "cryptographic_algorithm"))).
  vm_compute. reflexivity.
Qed.
Lemma stateful_class_has_mask : forall ot cls, class_of ot = Some cls ->
  implb (has_field cls "state") (has_field cls "cryptographic_usage_masks") = true.
Proof.
  apply (every_class_ok (fun _ c => implb (has_field c "state") (has_field c "cryptographic_usage_masks"))).
  vm_compute. reflexivity.
Qed.

(* a read of an attribute the class of the well-formed object (H) has: on every class, or, with Ht : mem_z ot ots = true,
   on the classes of the types ots; the table check is evaluated *)
Ltac rd_common H := apply ok_rd_present; [apply (common_field _ _ _ H); reflexivity|].
Ltac rd_typed H Ht := apply ok_rd_present; [apply (field_on_types _ _ _ _ H Ht); reflexivity|].

Lemma rd_all_present : forall func cls fs k, forallb (has_field cls) fs = true -> rd_all func cls fs k = k.
Proof.
  induction fs as [|f fs IH]; simpl; intros k H; [reflexivity|]. apply andb_true_iff in H. destruct H as [H1 H2].
  unfold rd. rewrite H1. auto.
Qed.

(* _build_core_object reads only what the class of the object's type has *)
Lemma build_core_wf : forall o k, wf_sobj o -> build_core o k = k.
Proof.
  intros o k Ho. unfold build_core, rd. rewrite (common_field _ _ "_object_type" Ho eq_refl).
  apply rd_all_present.
  apply (every_class_ok (fun ot c => forallb (has_field c) (build_core_fields ot))); [vm_compute; reflexivity | exact Ho].
Qed.

Lemma find_obj_in : forall s u o, find_obj s u = Some o -> In o s.
Proof. induction s as [|a s IH]; simpl; intros u o H; try discriminate.
  destruct (so_uid a =? u). - inversion H; auto. - right; eauto. Qed.

Lemma lookup_wf : forall s u o, wf_store s -> lookup s u = Found o -> wf_sobj o.
Proof.
  intros s u o Hs H. unfold lookup in H. destruct u as [u|]; try discriminate.
  destruct (find_obj s u) as [o'|] eqn:E; try discriminate.
  destruct (so_allowed o'); try discriminate. inversion H; subst.
  apply find_obj_in in E. unfold wf_store in Hs. rewrite Forall_forall in Hs. auto.
Qed.

Lemma ok_with_obj : forall (P : string -> Prop) s u k, wf_store s -> (forall o, wf_sobj o -> sites_ok P (k o)) -> sites_ok P (with_obj s u k).
Proof. intros. unfold with_obj. destruct (lookup s u) eqn:E; simpl; auto. apply H0. eapply lookup_wf; eauto. Qed.

Lemma every_rule : forall chk, forallb chk attr_rule_table = true ->
  forall n r, find_rule n = Some r -> chk r = true /\ ar_name r = n.
Proof.
  intros chk H n r Hr. apply find_rule_in in Hr. destruct Hr as [Hin Hn]. rewrite forallb_forall in H. auto.
Qed.

Section FieldMap.
  (* attribute name -> the pie attribute a helper reads or writes for it: attr_field or set_field *)
  Variable fm : string -> option string.

  (* the only attribute an applicable name can miss on the object's class: a certificate's algorithm and length *)
  Definition missing_ok : bool :=
    forallb (fun r => match fm (ar_name r) with
                      | Some f => every_class (fun ot c => implb (mem_z ot (ar_object_types r))
                                    (has_field c f || String.eqb c "X509Certificate"
                                                      && (String.eqb f "cryptographic_algorithm" || String.eqb f "cryptographic_length")))
                      | None => true
                      end) attr_rule_table.

  Lemma applicable_field : missing_ok = true -> forall n r f ot cls,
    find_rule n = Some r -> fm n = Some f -> class_of ot = Some cls -> mem_z ot (ar_object_types r) = true -> has_field cls f = false ->
    cls = "X509Certificate" /\ (f = "cryptographic_algorithm" \/ f = "cryptographic_length").
  Proof.
    intros H n r f ot cls Hr Hf Hp Happ Hno. destruct (every_rule _ H n r Hr) as [K Hn]. rewrite Hn, Hf in K.
    apply every_class_ok with (1 := K) in Hp. rewrite Happ, Hno in Hp. cbn [implb orb] in Hp.
    apply andb_true_iff in Hp. destruct Hp as [Hc Hf']. apply String.eqb_eq in Hc.
    apply orb_true_iff in Hf'. rewrite !String.eqb_eq in Hf'. auto.
  Qed.

  (* what the client may modify is on every stored class *)
  Definition modifiable_ok : bool :=
    forallb (fun r => implb (ar_modifiable_by_client r)
                        match fm (ar_name r) with Some f => common f | None => true end) attr_rule_table.

  Lemma modifiable_field : modifiable_ok = true -> forall n r f ot cls,
    find_rule n = Some r -> ar_modifiable_by_client r = true -> fm n = Some f -> class_of ot = Some cls -> has_field cls f = true.
  Proof.
    intros H n r f ot cls Hr Hm Hf Hp. destruct (every_rule _ H n r Hr) as [K Hn]. rewrite Hm, Hn, Hf in K.
    exact (common_field _ _ _ Hp K).
  Qed.
End FieldMap.

Lemma attr_field_applicable : missing_ok attr_field = true. Proof. vm_compute. reflexivity. Qed.
Lemma set_field_applicable : missing_ok set_field = true. Proof. vm_compute. reflexivity. Qed.
Lemma attr_field_modifiable : modifiable_ok attr_field = true. Proof. vm_compute. reflexivity. Qed.
Lemma set_field_modifiable : modifiable_ok set_field = true. Proof. vm_compute. reflexivity. Qed.

Definition keys_known (d : tdict) : Prop := Forall (fun p => exists r, find_rule (fst p) = Some r) d.

Lemma td_set_known : forall d n v r, keys_known d -> find_rule n = Some r -> keys_known (td_set d n v).
Proof.
  induction d as [|[k x] d IH]; simpl; intros.
  - constructor; [simpl; eauto | constructor].
  - inversion H; subst. destruct (String.eqb k n) eqn:E.
    + constructor; auto.
    + constructor; auto. eapply IH; eauto.
Qed.

Lemma proc_attrs_ok : forall v l d, keys_known d ->
  match proc_attrs v l d with inl d' => keys_known d' | inr o => o = Done end.
Proof.
  induction l as [|a l IH]; simpl; intros d Hd; auto.
  destruct (q_supported v (a_name a)); simpl; auto.
  destruct (find_rule (a_name a)) as [r|] eqn:Er; auto.
  (* every path answers Done or goes on with the entry for this name replaced *)
  assert (Hs : forall x, keys_known (td_set d (a_name a) x)) by (intro; eapply td_set_known; eauto).
  destruct (ar_multivalued r), (a_index a) as [i|], (td_get d (a_name a)) as [[|]|]; try destruct (negb (i =? 0)); auto;
    apply IH, Hs.
Qed.

(* a handler goes on with a dictionary whose names all have a rule set, or has answered a KmipError *)
Lemma ok_proc_template : forall (P : string -> Prop) v ta k, (forall d, keys_known d -> sites_ok P (k d)) ->
  sites_ok P (match proc_template v ta with inr o => o | inl d => k d end).
Proof.
  intros P v ta k H. unfold proc_template. destruct ta as [t|]; [|apply H; constructor]. destruct (ta_names t); [exact I|].
  pose proof (proc_attrs_ok v (ta_attrs t) [] (Forall_nil _)) as Hd. destruct (proc_attrs v (ta_attrs t) []); [auto | subst; exact I].
Qed.

Lemma td_merge_known : forall c o, keys_known c -> keys_known o -> keys_known (td_merge c o).
Proof.
  induction c as [|[k v] c IH]; simpl; intros; auto. inversion H; subst. apply IH; auto.
  destruct (td_get o k); auto. apply Forall_app; split; auto.
Qed.

(* writing one attribute keeps class and type; it can only fail internally where the class lacks the attribute written *)
Lemma set_attribute_sites : forall (P : string -> Prop) t n r vals k, class_of (t_otype t) = Some (t_cls t) -> find_rule n = Some r ->
  (forall f, set_field n = Some f -> has_field (t_cls t) f = false -> defect "set-attribute-missing-field" = true ->
             P (attr_err ENGINE SET1 f)) ->
  (forall t', t_cls t' = t_cls t -> t_otype t' = t_otype t -> sites_ok P (k t')) ->
  sites_ok P (match set_attribute t n vals with inl t' => k t' | inr o => o end).
Proof.
  intros P t n r vals k Hp Hr Hf Hk. unfold set_attribute. set (body := q_multivalued n _).
  assert (K : sites_ok P body).
  { subst body. unfold q_multivalued. rewrite (q_some _ _ _ _ _ Hr). destruct (ar_multivalued r).
    - guards; rd_common Hp; guards.
    - destruct (set_field n) as [f|]; [|exact I]. destruct vals as [|a vals]; [exact I|].
      apply ok_rd_or; [auto | cbv zeta; apply ok_guard | ]; exact I. }
  destruct body; [exact K | | exact K]. apply Hk; destruct (String.eqb n "Name"); reflexivity.
Qed.

(* over a whole dictionary: the only attributes set_attribute can miss on the class are a certificate's algorithm and length *)
Lemma set_attributes_sites : forall (P : string -> Prop) d t, class_of (t_otype t) = Some (t_cls t) -> keys_known d ->
  (forall f, t_cls t = "X509Certificate" -> f = "cryptographic_algorithm" \/ f = "cryptographic_length" ->
             defect "set-attribute-missing-field" = true -> P (attr_err ENGINE SET1 f)) ->
  sites_ok P (set_attributes t d).
Proof.
  induction d as [|[n vals] d IH]; intros t Hp Hd HP; [exact I|]. cbn [set_attributes].
  inversion Hd as [|? ? [r Hr] Hd']; subst. cbn [fst] in Hr. unfold q_applicable. rewrite (q_some _ _ _ _ _ Hr).
  destruct (mem_z (t_otype t) (ar_object_types r)) eqn:Happ; [|exact I].
  apply (set_attribute_sites P t n r vals _ Hp Hr).
  - intros f Ef Hno. destruct (applicable_field set_field set_field_applicable n r f _ _ Hr Ef Hp Happ Hno). auto.
  - intros t' H1 H2. apply IH; [rewrite H1, H2; exact Hp | exact Hd' | rewrite H1; exact HP].
Qed.

Lemma set_attributes_not_cert : forall (P : string -> Prop) d t, class_of (t_otype t) = Some (t_cls t) -> keys_known d ->
  t_cls t <> "X509Certificate" -> sites_ok P (set_attributes t d).
Proof. intros. apply set_attributes_sites; auto. intros; contradiction. Qed.

(* an attribute the client may modify is on every class: writing it cannot fail internally *)
Lemma set_attribute_modifiable : forall (P : string -> Prop) t n r vals k, class_of (t_otype t) = Some (t_cls t) -> find_rule n = Some r ->
  ar_modifiable_by_client r = true -> (forall t', sites_ok P (k t')) ->
  sites_ok P (match set_attribute t n vals with inl t' => k t' | inr c => c end).
Proof.
  intros P t n r vals k Hp Hr Hm Hk. apply (set_attribute_sites P t n r vals k Hp Hr); [|intros; apply Hk]. intros f Ef Hno.
  rewrite (modifiable_field set_field set_field_modifiable n r f _ _ Hr Hm Ef Hp) in Hno. discriminate.
Qed.

Lemma ok_h_create : forall v cr otype ta, crypto_observed cr -> sites_ok (allowed "CREATE" cr) (h_create v cr otype ta).
Proof.
  intros. unfold h_create. apply ok_guard. apply ok_proc_template; intros d Hd.
  guards. apply ok_crypto; [assumption|]. apply set_attributes_not_cert; [reflexivity | assumption | discriminate].
Qed.

Lemma ok_h_create_key_pair : forall v cr c pr pu, crypto_observed cr ->
  sites_ok (allowed "CREATE_KEY_PAIR" cr) (h_create_key_pair v cr c pr pu).
Proof.
  intros. unfold h_create_key_pair.
  apply ok_proc_template; intros d1 H1. apply ok_proc_template; intros d2 H2. apply ok_proc_template; intros d3 H3.
  cbv zeta. guards. apply ok_crypto; [assumption|].
  apply ok_then; (apply set_attributes_not_cert; [reflexivity | apply td_merge_known; assumption | discriminate]).
Qed.

Lemma assoc_key_in : forall k l r, assoc_key k l = Some r -> In r (map snd l).
Proof.
  induction l as [|[[[[a b] c] d] x] l IH]; simpl; intros r H; try discriminate.
  destruct k as [[[a' b'] c'] d']. destruct ((a =? a') && (b =? b') && Bool.eqb c c' && (d =? d')).
  - inversion H; auto. - right; auto.
Qed.
Lemma assoc_zz_in : forall A k (l : list ((Z * Z) * A)) r, assoc_zz k l = Some r -> In r (map snd l).
Proof. induction l as [|[[a b] x] l IH]; simpl; intros r H; try discriminate.
  destruct ((a =? fst k) && (b =? snd k)). - inversion H; auto. - right; auto. Qed.

Lemma opt_sites_in : forall l site, In (Some site) l -> String.eqb site KMIP_ERROR = false -> In site (opt_sites l).
Proof. intros l site H E. apply in_flat_map. exists (Some site). split; [exact H|]. rewrite E. left; reflexivity. Qed.

(* what ObjectFactory.convert raised, other than what _process_register turns into a KmipError, is a site of Register *)
Lemma convert_site_listed : forall sec site, convert sec = Some (Some site) -> String.eqb site KMIP_ERROR = false ->
  mem_s site (op_sites "REGISTER") = true.
Proof.
  intros sec site H E.
  apply mem_s_In, in_or_app. left. unfold convert_sites. rewrite !in_app_iff.
  destruct sec; unfold convert in H; [destruct (missing =? 0)|..].
  - left. apply opt_sites_in; [eapply assoc_key_in; eassumption | assumption].
  - right; left. apply opt_sites_in; [eapply assoc_zz_in; eassumption | assumption].
  - right; right; left. apply opt_sites_in; [|assumption]. apply assoc_z_in in H. exact (in_map snd _ _ H).
  - right; right; right. apply opt_sites_in; [|assumption]. apply assoc_z_in in H. exact (in_map snd _ _ H).
Qed.

Lemma ok_h_register : forall v cr otype sec ta, wf_item (IRegister otype sec ta) ->
  sites_ok (allowed "REGISTER" cr) (h_register v otype sec ta).
Proof.
  intros v cr otype sec ta Hwf. unfold h_register. destruct (class_of otype); [|exact I].
  destruct sec as [sec|]; [|exact I]. destruct Hwf as [Hc Hcl].
  apply ok_proc_template; intros d Hd.
  destruct (convert sec) as [[site|]|] eqn:Ec; [| |contradiction].
  - destruct (String.eqb site KMIP_ERROR) eqn:Ek; [exact I|]. left. eapply convert_site_listed; eassumption.
  - apply ok_guard_eq; intro Eb.
    destruct (class_of (sec_otype sec)) as [cls|] eqn:Ecl; [|contradiction].
    destruct (match sec with SecKey _ _ _ _ a l _ _ => (Some a, Some l) | _ => (None, None) end) as [alg len].
    apply ok_then.
    + apply set_attributes_sites; [exact Ecl | exact Hd |].
      intros f _ [->| ->] Hdf; apply (listed_when _ _ _ _ Hdf); reflexivity.
    + destruct (sec_big sec); [|exact I]. apply negb_false_iff in Eb. apply (listed_when _ _ _ _ Eb). reflexivity.
Qed.

(* Activate, Revoke, Destroy read only attributes every stored class has *)
Lemma ok_h_activate : forall op cr s u, wf_store s -> sites_ok (allowed op cr) (h_activate s u).
Proof. intros. unfold h_activate. apply ok_with_obj; [assumption|]. intros o Ho. rd_common Ho. guards. Qed.
Lemma ok_h_revoke : forall op cr s u c, wf_store s -> sites_ok (allowed op cr) (h_revoke s u c).
Proof. intros. unfold h_revoke. destruct c; [|exact I]. apply ok_with_obj; [assumption|]. intros o Ho. rd_common Ho. guards. Qed.
Lemma ok_h_destroy : forall op cr s u, wf_store s -> sites_ok (allowed op cr) (h_destroy s u).
Proof. intros. unfold h_destroy. apply ok_with_obj; [assumption|]. intros o Ho. guards. Qed.

(* Encrypt / Decrypt / Sign / SignatureVerify: state and usage mask are read once the object is known to be a key *)
Lemma ok_h_crypto_op : forall op cr func want bit s u p, wf_store s -> crypto_observed cr ->
  mem_z want [OT_SYMMETRIC_KEY; OT_PUBLIC_KEY; OT_PRIVATE_KEY] = true ->
  sites_ok (allowed op cr) (h_crypto_op func want bit s cr u p).
Proof.
  intros op cr func want bit s u p Hs Hc Hw. unfold h_crypto_op. apply ok_with_obj; [assumption|]. intros o Ho.
  apply ok_guard. rd_common Ho.
  apply ok_guard_eq; intro Et. apply negb_false_iff, Z.eqb_eq in Et. rewrite <- Et in Hw.
  rd_typed Ho Hw. apply ok_guard. rd_typed Ho Hw. apply ok_guard. rd_common Ho. apply ok_crypto; [assumption | exact I].
Qed.

Lemma ok_h_mac : forall cr s u a d, wf_store s -> crypto_observed cr -> sites_ok (allowed "MAC" cr) (h_mac s cr u a d).
Proof.
  intros cr s u a d Hs Hc. unfold h_mac. apply ok_with_obj; [assumption|]. intros o Ho. apply ok_then.
  - destruct a; [exact I|]. destruct (assoc_s (so_class o) class_is_key) as [[|]|] eqn:Ek; try exact I.
    apply ok_rd_present; [|guards].
    pose proof (key_class_has_algorithm _ _ Ho) as K.
    rewrite Ek in K. exact K.
  - rd_common Ho. apply ok_guard. apply ok_guard. apply ok_guard.
    unfold rd_or. destruct (has_field (so_class o) "state") eqn:Est.
    + apply ok_guard. apply ok_rd_present; [|apply ok_guard; apply ok_crypto; [assumption | exact I]].
      pose proof (stateful_class_has_mask _ _ Ho) as K.
      rewrite Est in K. exact K.
    + apply ok_unguarded_listed. reflexivity.
Qed.

Lemma ok_h_get : forall cr s u kft comp w, wf_store s -> crypto_observed cr ->
  sites_ok (allowed "GET" cr) (h_get s cr u kft comp w).
Proof.
  intros cr s u kft comp w Hs Hc. unfold h_get. apply ok_guard. apply ok_with_obj; [assumption|]. intros o Ho.
  apply ok_then; [guards|]. rd_common Ho. rd_common Ho.
  destruct w as [w|]; [|rewrite build_core_wf by assumption; exact I].
  apply ok_guard. destruct (w_eki w) as [[ku kparams]|]; [|exact I].
  apply ok_with_obj; [assumption|]. intros k Hk.
  (* the wrapping key: a symmetric key, so state and usage mask are there *)
  rd_common Hk. apply ok_guard_eq; intro Et. apply negb_false_iff, Z.eqb_eq in Et.
  assert (Hsym : mem_z (so_otype k) [OT_SYMMETRIC_KEY] = true) by (rewrite Et; reflexivity).
  rd_typed Hk Hsym. apply ok_guard. rd_typed Hk Hsym. apply ok_guard. apply ok_guard. apply ok_guard.
  rd_common Ho. destruct kparams; cbn [negb]; [|apply ok_unguarded_listed; reflexivity].
  (* a secret without a key block is only wrapped while "get-wrap-non-key" is present *)
  cbv zeta. set (keyblock := match assoc_z _ core_has_key_block with Some true => true | _ => false end). clearbody keyblock.
  apply ok_guard_eq; intro Ekb. rd_common Hk. apply ok_crypto; [assumption|]. rewrite build_core_wf by assumption.
  destruct keyblock; [exact I|]. apply negb_false_iff in Ekb. apply (listed_when _ _ _ _ Ekb). reflexivity.
Qed.

Lemma attrs_listed_total : forall v o n, exists k, attrs_listed v o n = inr k.
Proof.
  intros v o n. unfold attrs_listed. destruct (q_supported v n) eqn:E; simpl; eauto.
  destruct (supported_has_rule _ _ E) as [r Hr].
  unfold q_deprecated, q_applicable. rewrite !(q_some _ _ _ _ _ Hr).
  destruct (match ar_version_deprecated r with Some d => ver_ge v d | None => false end); eauto.
  destruct (mem_z (so_otype o) (ar_object_types r)); eauto.
  destruct (attr_field n); eauto. destruct (has_field (so_class o) s); eauto. destruct (attr_list_len o n); eauto.
Qed.

Lemma get_attrs_count_total : forall v o names, exists k, get_attrs_count v o names = inr k.
Proof.
  induction names as [|n t IH]; simpl; eauto.
  destruct (attrs_listed_total v o n) as [k Hk]. rewrite Hk. destruct IH as [m Hm]. rewrite Hm. eauto.
Qed.

(* the only internal error: the KMIP 2.0 GetAttributes response without any attribute *)
Lemma h_get_attributes_sites : forall v s u names il, wf_store s ->
  sites_ok (fun site => il = false /\ ver_ge v (2,0) = true /\ defect "get-attributes-empty-response" = true /\
                        site = ENCODE_GET_ATTRIBUTES)
           (h_get_attributes v s u names il).
Proof.
  intros v s u names il Hs. unfold h_get_attributes. apply ok_with_obj; [assumption|]. intros o Ho. rd_common Ho.
  destruct (get_attrs_count_total v o (match names with [] => all_attribute_names | _ => names end)) as [k Hk]. rewrite Hk.
  destruct il, (ver_ge v (2,0)); try exact I. destruct (k =? 0)%nat; [|exact I]. apply ok_unguarded. auto.
Qed.

Lemma derive_objects_ok : forall s uids, wf_store s ->
  match derive_objects s uids with
  | inl c => c = Done
  | inr [] => uids = []
  | inr (k0 :: _) => wf_sobj k0
  end.
Proof.
  intros s uids Hs. induction uids as [|u t IH]; cbn [derive_objects].
  - reflexivity.
  - destruct (lookup s (Some u)) as [| |o] eqn:E; [reflexivity | reflexivity | ].
    pose proof (lookup_wf _ _ _ Hs E) as Ho. unfold rd. rewrite (common_field _ _ "_object_type" Ho eq_refl).
    destruct (mem_z (so_otype o) [OT_SECRET_DATA; OT_SYMMETRIC_KEY; OT_PUBLIC_KEY; OT_PRIVATE_KEY]) eqn:Et; [|reflexivity].
    rewrite (field_on_types _ "cryptographic_usage_masks" _ _ Ho Et eq_refl).
    destruct (has_bit (so_mask o) UM_DERIVE_KEY); [|reflexivity].
    destruct (derive_objects s t) as [c|l]; [exact IH | exact Ho].
Qed.

Lemma ok_h_derive_key : forall v s cr otype uids hd hp ta, wf_store s -> crypto_observed cr -> uids <> [] ->
  sites_ok (allowed "DERIVE_KEY" cr) (h_derive_key v s cr otype uids hd hp ta).
Proof.
  intros v s cr otype uids hd hp ta Hs Hc Hu. unfold h_derive_key. apply ok_proc_template; intros d Hd.
  apply ok_guard.
  pose proof (derive_objects_ok s uids Hs) as Hk0.
  destruct (derive_objects s uids) as [c|[|k0 others]]; [subst; exact I | contradiction | ].
  rd_common Hk0. destruct (td_get d "Cryptographic Length") as [[|l ?]|]; try exact I.
  apply ok_guard. apply ok_guard. cbv zeta. apply ok_guard. rd_common Hk0.
  destruct hp; cbn [negb]; [|apply ok_unguarded_listed; reflexivity].
  apply ok_crypto; [assumption|].
  destruct (otype =? OT_SYMMETRIC_KEY); apply set_attributes_not_cert.
  - reflexivity. - assumption. - discriminate.
  - reflexivity. - exact (incl_Forall (incl_filter _ d) Hd). - discriminate.
Qed.

Lemma ok_loc_object : forall cr o l dates, wf_sobj o -> sites_ok (allowed "LOCATE" cr) (loc_object o l dates).
Proof.
  intros cr o l. induction l as [|a t IH]; intros dates Ho; cbn [loc_object]; [exact I|].
  apply ok_q_rule; [reflexivity | intros _ _; exact I | intros r Hr]. cbv beta.
  destruct (mem_z (so_otype o) (ar_object_types r)) eqn:Happ; [|exact I]. cbn [negb].
  destruct (attr_field (a_name a)) as [f|] eqn:Ef; [|exact I].
  apply ok_rd_get1; [| guards; auto | exact I].
  intros Hf Hd. destruct (applicable_field attr_field attr_field_applicable _ _ _ _ _ Hr Ef Ho Happ Hf) as [_ Hal].
  pose proof (Hd Hal) as Hdf. destruct Hal as [->| ->]; apply (listed_when _ _ _ _ Hdf); reflexivity.
Qed.

Lemma ok_h_locate : forall cr v s l, wf_store s -> sites_ok (allowed "LOCATE" cr) (h_locate v s l).
Proof.
  intros cr v s l Hs. unfold h_locate. destruct l as [|a l]; [exact I|]. apply ok_guard.
  induction Hs as [|o s Ho Hs IH]; cbn [loc_store]; [exact I|].
  destruct (so_allowed o); [|exact IH]. apply ok_then; [apply ok_loc_object; exact Ho | exact IH].
Qed.

Lemma ok_delete_from : forall cr o name value, wf_sobj o -> sites_ok (allowed "DELETE_ATTRIBUTE" cr) (delete_from o name value).
Proof.
  intros cr o name value Ho. unfold delete_from. rd_common Ho.
  apply ok_q_rule; [reflexivity | intros _ _; exact I | intros r Hr]. cbv beta. apply ok_guard.
  unfold q_deletable, q_multivalued. rewrite !(q_some _ _ _ _ _ Hr). apply ok_guard. apply ok_guard.
  guards; rd_common Ho; guards. apply ok_unguarded_listed. reflexivity.
Qed.

Lemma ok_h_delete1 : forall cr v s u n i, wf_store s -> sites_ok (allowed "DELETE_ATTRIBUTE" cr) (h_delete1 v s u n i).
Proof.
  intros. unfold h_delete1. apply ok_with_obj; [assumption|]. intros o Ho. apply ok_guard.
  destruct (attrs_listed_total v o n) as [k Hk]. rewrite Hk. cbv zeta. apply ok_guard. apply ok_delete_from; assumption.
Qed.

Lemma ok_h_delete2 : forall cr s u c r, wf_store s -> sites_ok (allowed "DELETE_ATTRIBUTE" cr) (h_delete2 s u c r).
Proof.
  intros. unfold h_delete2. apply ok_with_obj; [assumption|]. intros o Ho.
  destruct c; [apply ok_delete_from; assumption|]. destruct r; [apply ok_delete_from; assumption | exact I].
Qed.

Lemma ver_eqb_eq : forall a b, ver_eqb a b = true -> a = b.
Proof.
  intros [a1 a2] [b1 b2] H. apply andb_true_iff in H. destruct H as [H1 H2].
  apply Z.eqb_eq in H1. apply Z.eqb_eq in H2. cbn [fst snd] in *. congruence.
Qed.

(* Name, Object Group and Application Specific Information exist in every supported version, are never deprecated,
   apply to every stored type and are on every stored class: the count attrs_listed gives is the length of the list *)
Definition list_attrs_ok : bool :=
  forallb (fun r => implb (mem_s (ar_name r) ["Name"; "Object Group"; "Application Specific Information"])
                      (forallb (fun v => ver_ge v (ar_version_added r)) supported_versions
                       && match ar_version_deprecated r with None => true | Some _ => false end
                       && match attr_field (ar_name r) with
                          | Some f => every_class (fun ot c => mem_z ot (ar_object_types r) && has_field c f)
                          | None => false
                          end)) attr_rule_table.

Lemma attrs_listed_list : forall v o n r len, supported_version v = true -> wf_sobj o -> find_rule n = Some r ->
  attr_list_len o n = Some len -> attrs_listed v o n = inr len.
Proof.
  intros v o n r len Hv Ho Hr El.
  assert (Hn : mem_s n ["Name"; "Object Group"; "Application Specific Information"] = true).
  { unfold attr_list_len in El. unfold mem_s. cbn [existsb].
    destruct (String.eqb n "Name"); [reflexivity|]. destruct (String.eqb n "Object Group"); [reflexivity|].
    destruct (String.eqb n "Application Specific Information"); [reflexivity | discriminate]. }
  assert (H : list_attrs_ok = true) by (vm_compute; reflexivity).
  destruct (every_rule _ H n r Hr) as [K Hname]. rewrite Hname, Hn in K. cbn [implb] in K.
  apply andb_true_iff in K. destruct K as [K Hf]. apply andb_true_iff in K. destruct K as [Hadd Hdep].
  destruct (attr_field n) as [f|] eqn:Ef; [|discriminate]. destruct (ar_version_deprecated r) eqn:Edep; [discriminate|].
  apply every_class_ok with (2 := Ho) in Hf. apply andb_true_iff in Hf. destruct Hf as [Happ Hhas].
  apply existsb_exists in Hv. destruct Hv as [x [Hin Hx]]. apply ver_eqb_eq in Hx. subst x.
  rewrite forallb_forall in Hadd. specialize (Hadd v Hin).
  unfold attrs_listed, q_supported, q_deprecated, q_applicable. rewrite Hr, !(q_some _ _ _ _ _ Hr), Hadd, Edep, Happ, Ef, Hhas, El.
  reflexivity.
Qed.

Lemma ok_h_set_attribute : forall cr s u a, wf_store s -> sites_ok (allowed "SET_ATTRIBUTE" cr) (h_set_attribute s u a).
Proof.
  intros cr s u a Hs. unfold h_set_attribute. apply ok_with_obj; [assumption|]. intros o Ho.
  apply ok_q_rule; [reflexivity | intros Hn Hq | intros r Hr]; cbv beta.
  - (* no rule set, and the multivalued query answered instead of raising: the modifiable query is asked as well *)
    apply ok_q_rule; [|intros _ _; exact I | intros r Hr; congruence].
    assert (K : match pol "is_attribute_multivalued" with
                | [] => pol_listed "SET_ATTRIBUTE" "is_attribute_modifiable_by_client"
                | _ => true
                end = true) by reflexivity.
    rewrite Hq in K. exact K.
  - destruct (ar_multivalued r); [exact I|]. unfold q_modifiable. rewrite (q_some _ _ _ _ _ Hr).
    destruct (ar_modifiable_by_client r) eqn:Hm; [|exact I]. cbn [negb]. rd_common Ho.
    cbn [set_attributes]. unfold q_applicable. rewrite (q_some _ _ _ _ _ Hr).
    destruct (mem_z (t_otype (stored_target o)) (ar_object_types r)); [|exact I].
    apply (set_attribute_modifiable _ (stored_target o) _ r _ _ Ho Hr Hm). intro t'. exact I.
Qed.

(* for a name the client may modify, _get_attribute_from_managed_object finds the attribute on the object *)
Lemma get_attr_modifiable : forall o n r k, wf_sobj o -> find_rule n = Some r -> ar_modifiable_by_client r = true ->
  get_attr_unguarded o n k = match attr_field n with Some _ => k (Some (attr_list_len o n)) | None => k None end.
Proof.
  intros o n r k Ho Hr Hm. unfold get_attr_unguarded. destruct (attr_field n) as [f|] eqn:Ef; [|reflexivity].
  unfold rd_get1. rewrite (modifiable_field attr_field attr_field_modifiable n r f _ _ Hr Hm Ef Ho). reflexivity.
Qed.

(* ModifyAttribute asks whether the client may modify the name, then whether it is multi-valued *)
Lemma ok_modifiable_multivalued : forall cr name k,
  (forall r, find_rule name = Some r -> ar_modifiable_by_client r = true ->
             sites_ok (allowed "MODIFY_ATTRIBUTE" cr) (k (ar_multivalued r))) ->
  sites_ok (allowed "MODIFY_ATTRIBUTE" cr) (q_modifiable name (fun m => if negb m then Done else q_multivalued name k)).
Proof.
  intros cr name k H. apply ok_q_rule; [reflexivity | intros _ _; exact I | intros r Hr]. cbv beta.
  destruct (ar_modifiable_by_client r) eqn:Hm; [|exact I]. unfold q_multivalued. rewrite (q_some _ _ _ _ _ Hr). exact (H r Hr Hm).
Qed.

Lemma ok_h_modify1 : forall cr v s u a, supported_version v = true -> wf_store s ->
  sites_ok (allowed "MODIFY_ATTRIBUTE" cr) (h_modify1 v s u a).
Proof.
  intros cr v s u a Hv Hs. unfold h_modify1. apply ok_with_obj; [assumption|]. intros o Ho.
  apply ok_modifiable_multivalued; intros r Hr Hm. destruct (ar_multivalued r).
  - cbv zeta. rewrite (get_attr_modifiable o _ r _ Ho Hr Hm).
    destruct (attr_field (a_name a)); [destruct (attr_list_len o (a_name a)) as [n|] eqn:El|].
    + (* the index is within the list, and attrs_listed counts the same list *)
      match goal with |- sites_ok _ (if ?c then _ else _) => destruct c eqn:Eidx end; [|exact I].
      rewrite (attrs_listed_list v o _ r n Hv Ho Hr El). apply andb_true_iff in Eidx. destruct Eidx as [_ E2]. rewrite E2. exact I.
    + apply ok_guard. apply ok_unguarded_listed. reflexivity.
    + apply ok_guard. apply ok_unguarded_listed. reflexivity.
  - destruct (a_index a); [exact I|].
    destruct (attrs_listed_total v o (a_name a)) as [k Hk]. rewrite Hk. destruct k; [exact I|].
    apply (set_attribute_modifiable _ (stored_target o) _ r _ _ Ho Hr Hm). intro t'. exact I.
Qed.

Lemma ok_h_modify2 : forall cr s u a c, wf_store s -> sites_ok (allowed "MODIFY_ATTRIBUTE" cr) (h_modify2 s u a c).
Proof.
  intros cr s u a c Hs. unfold h_modify2. apply ok_with_obj; [assumption|]. intros o Ho. apply ok_guard.
  apply ok_modifiable_multivalued; intros r Hr Hm.
  pose proof (set_attribute_modifiable (allowed "MODIFY_ATTRIBUTE" cr) (stored_target o) (a_name a) r [a] (fun _ => Done)
                Ho Hr Hm (fun _ => I)) as H1.
  pose proof (fun f Ef => modifiable_field attr_field attr_field_modifiable _ _ f _ _ Hr Hm Ef Ho) as Hfld.
  destruct (ar_multivalued r), c as [c|].
  - destruct (attr_list_len o (a_name a)); [|exact I]. destruct (attr_field (a_name a)) as [f|]; [|exact I].
    apply ok_rd_present; [exact (Hfld f eq_refl) | exact I].
  - exact I.
  - destruct (attr_field (a_name a)) as [f|]; [|exact I]. apply ok_rd_present; [exact (Hfld f eq_refl) |].
    destruct (loc_match o c); [exact H1 | exact I].
  - rewrite (get_attr_modifiable o _ r _ Ho Hr Hm). destruct (attr_field (a_name a)); [exact H1 | exact I].
Qed.

Create HintDb handlers discriminated.
#[local] Hint Resolve ok_h_create ok_h_create_key_pair ok_h_register ok_h_derive_key ok_h_locate ok_h_get ok_h_activate
  ok_h_revoke ok_h_destroy ok_h_crypto_op ok_h_mac ok_h_set_attribute ok_h_modify1 ok_h_modify2 ok_h_delete1 ok_h_delete2
  : handlers.

(* whatever the crypto engine did: a crash is at a listed site of the operation, or is the crypto engine's own exception *)
Theorem step_sites : forall v s cr it,
  supported_version v = true -> wf_store s -> wf_item it -> crypto_observed cr ->
  sites_ok (allowed (op_of it) cr) (step v s cr it).
Proof.
  intros v s cr it Hv Hs Hw Hc. unfold step. apply ok_then; [|exact I]. unfold step_raw. apply ok_guard.
  (* most items are their handler's lemma; left are GetAttributes, GetAttributeList and the version-gated item forms *)
  destruct it; cbn [op_of]; try exact I; auto with handlers.
  - eapply sites_ok_impl; [|apply h_get_attributes_sites; assumption].
    intros site (_ & _ & Hd & ->). apply (listed_when _ _ _ _ Hd). reflexivity.
  - eapply sites_ok_impl; [|apply h_get_attributes_sites; assumption]. intros site [H _]. discriminate H.
  - destruct (ver_ge v (2,0)); [exact I | auto with handlers].
  - destruct (ver_ge v (2,0)); [auto with handlers | exact I].
  - destruct (ver_ge v (2,0)); [exact I | auto with handlers].
  - destruct (ver_ge v (2,0)); [auto with handlers | exact I].
Qed.

Lemma op_sites_listed : forallb (fun op => forallb (finding_listed op) (op_sites op)) all_ops = true.
Proof. vm_compute. reflexivity. Qed.

Lemma op_in_all : forall it, In (op_of it) all_ops.
Proof. intro it. apply mem_s_In. destruct it; reflexivity. Qed.

Lemma site_is_finding : forall it site, mem_s site (op_sites (op_of it)) = true -> finding_listed (op_of it) site = true.
Proof.
  intros it site H. pose proof op_sites_listed as L. rewrite forallb_forall in L.
  specialize (L _ (op_in_all it)). rewrite forallb_forall in L. exact (L _ (proj1 (mem_s_In _ _) H)).
Qed.

Lemma clean_outside_dirty_now : forall it, ~ In (op_of it) dirty_now -> clean_op it = true.
Proof.
  intros it H.
  assert (K : forallb (fun op => mem_s op dirty_now || match op_sites op with [] => true | _ => false end) all_ops = true)
    by (vm_compute; reflexivity).
  rewrite forallb_forall in K. specialize (K _ (op_in_all it)). apply orb_true_iff in K.
  destruct K as [K|K]; [elim H; exact (proj1 (mem_s_In _ _) K) | exact K].
Qed.

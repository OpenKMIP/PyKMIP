(* C14 - the store, policy and requests the witnesses in props/C14.v are stated on: a non-trivial
   store and request that meet the side conditions of the refinement theorem; and two witnesses of
   their own (a NULL length column, negative offset / maximum). *)
From Coq Require Import String ZArith List Bool.
From PK Require Import Locate.Locate Locate.LocateProofs.
Import ListNotations.
Open Scope string_scope.
Open Scope list_scope.
Open Scope Z_scope.

Definition ex_key (uid : Z) (owner : String.string) (idate len : Z) : obj :=
  mkObj uid 2 owner (Some "default") false idate 1 12 (Some 3) (Some len) 0 ["k1"] ["grpA"] [("ssl", "www.example.com")].
Definition ex_cert (uid : Z) (owner : String.string) (idate : Z) : obj :=
  mkObj uid 1 owner (Some "default") false idate 1 0 None None 1 [] [] [].
Definition ex_opaque (uid : Z) (owner : String.string) (idate : Z) : obj :=
  mkObj uid 8 owner (Some "default") true idate 0 0 None None 0 ["blob"] [] [].

Definition ex_store : list obj :=
  [ex_key 1 "alice" 100 128; ex_cert 2 "bob" 100; ex_key 3 "alice" 105 256; ex_opaque 4 "alice" 103;
   ex_key 5 "bob" 101 256; ex_key 6 "alice" 105 256; ex_key 7 "alice" 99 256].

(* the built-in 'default' policy, LOCATE column *)
Definition ex_pols : policies :=
  [("default", mkPolicy (Some [(1, AllowAll); (2, AllowOwner); (3, AllowAll); (4, AllowOwner); (5, AllowOwner);
                               (6, AllowOwner); (7, AllowOwner); (8, AllowOwner)]) [])].
Definition ex_allowed : obj -> bool := allowed_of ex_pols (mkReq "alice" None).

(* a length filter with a certificate in sight (the certificate has no length: no match), a date range,
   a mask and a name filter *)
Definition ex_filters : list afilter := [FLen 256; FDate 105; FDate 99; FMask 4; FName "k1" 1].
Definition ex_ver : Z * Z := (1, 2).

Definition everyone : obj -> bool := fun _ => true.

(* a NULL column is an absent value *)
Lemma null_length_no_match :
  let o := mkObj 1 2 "alice" (Some "default") false 100 1 12 (Some 3) None 0 [] [] [] in
  locate_request ex_ver everyone [o] [FLen 128] None None = Ok [] /\ locate_spec everyone [o] [FLen 128] None None = [].
Proof. vm_compute. split; reflexivity. Qed.

(* the refinement without side conditions (refuted in props/C14.v) *)
Definition locate_refines_spec_unconditional : Prop :=
  forall ver allowed objs fs off mx, gate_ok ver fs = true -> nonneg off -> nonneg mx ->
    locate_request ver allowed objs fs off mx = Ok (locate_spec allowed objs fs off mx).

(* negative offset / maximum follow Python slice semantics (outside the theorems, inside the model) *)
Lemma negative_slices :
  page [1; 2; 3; 4; 5] (Some (-2)) None = [4; 5] /\ page [1; 2; 3; 4; 5] None (Some (-1)) = [1; 2; 3; 4] /\
  page [1; 2; 3; 4; 5] (Some 1) (Some (-3)) = [2; 3] /\ page [1; 2; 3; 4; 5] (Some (-4)) (Some 2) = [2; 3].
Proof. vm_compute. repeat split. Qed.

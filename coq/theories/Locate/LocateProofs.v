(* C14 - the hypotheses of the property theorems and the proofs about the Locate model (Locate.v).
   Two families run over obj_loop / obj_selected / filter_objs / locate_objs.  `*_spec`: under the side
   conditions the function equals the specification (start from obj_loop_step).  `*_cases`: with no side
   condition, what each of Ok / Refused / TooMany / Crash means (start from locate_request_cases).  The first
   does not follow from the second: `Crash` only yields SOME unreadable filter, whereas `reach_ok` excludes
   only those the loop reaches, so crash freedom has to be followed along the loop. *)
From Coq Require Import ZArith List Bool Lia ZifyBool Permutation Sorted.
From Coq Require String.
From PK Require Import Locate.Locate.
Import ListNotations.
Open Scope Z_scope.

Lemma In_firstn : forall {A} n (l : list A) x, In x (firstn n l) -> In x l.
Proof. intros A n l x H. rewrite <- (firstn_skipn n l). apply in_or_app; left; exact H. Qed.

Lemma In_skipn : forall {A} n (l : list A) x, In x (skipn n l) -> In x l.
Proof. intros A n l x H. rewrite <- (firstn_skipn n l). apply in_or_app; right; exact H. Qed.

Lemma StronglySorted_firstn : forall {A} (R : A -> A -> Prop) n l, StronglySorted R l -> StronglySorted R (firstn n l).
Proof.
  induction n as [|n IH]; intros l S; simpl; [constructor|].
  destruct l as [|x l]; [constructor|]. inversion S; subst. constructor.
  - apply IH; assumption.
  - apply Forall_forall. intros y Hy. eapply Forall_forall; [eassumption | eapply In_firstn; exact Hy].
Qed.

Lemma StronglySorted_skipn : forall {A} (R : A -> A -> Prop) n l, StronglySorted R l -> StronglySorted R (skipn n l).
Proof.
  induction n as [|n IH]; intros l S; simpl; [exact S|].
  destruct l as [|x l]; [constructor|]. inversion S; subst. apply IH; assumption.
Qed.

Lemma firstn_add : forall {A} a b (l : list A), firstn (a + b) l = firstn a l ++ firstn b (skipn a l).
Proof.
  intros A a b l. rewrite <- (firstn_skipn a (firstn (a + b) l)), firstn_firstn, <- firstn_skipn_comm.
  rewrite Nat.min_l by lia. reflexivity.
Qed.

Lemma skipn_skipn_add : forall {A} a b (l : list A), skipn b (skipn a l) = skipn (a + b) l.
Proof.
  induction a as [|a IH]; intros b l; simpl; [reflexivity|].
  destruct l as [|x l]; simpl; [apply skipn_nil | apply IH].
Qed.

Lemma NoDup_map_filter : forall {A B} (f : A -> B) (p : A -> bool) l, NoDup (map f l) -> NoDup (map f (filter p l)).
Proof.
  induction l as [|x l IH]; simpl; intros ND; [constructor|].
  inversion ND as [|? ? Hx ND']; subst. destruct (p x); simpl; [constructor|]; try (apply IH; exact ND').
  intros H. apply Hx. apply in_map_iff in H. destruct H as [y [E Hy]].
  apply filter_In in Hy. apply in_map_iff. exists y. tauto.
Qed.

Lemma filter_filter : forall {A} (p q : A -> bool) l, filter q (filter p l) = filter (fun x => p x && q x) l.
Proof.
  induction l as [|x l IH]; simpl; [reflexivity|].
  destruct (p x); simpl; [destruct (q x); rewrite IH; reflexivity | exact IH].
Qed.

Lemma forallb_perm : forall {A} (p : A -> bool) l1 l2, Permutation l1 l2 -> forallb p l1 = forallb p l2.
Proof.
  intros A p l1 l2 H. induction H; simpl; try congruence.
  destruct (p x), (p y); reflexivity.
Qed.

(* Python clamps both bounds of xs[a:b] to len(xs); for firstn/skipn that changes nothing *)
Lemma firstn_skipn_clamp : forall {A} (l : list A) a b,
  firstn (Nat.min b (List.length l) - Nat.min a (List.length l)) (skipn (Nat.min a (List.length l)) l) =
  firstn (b - a) (skipn a l).
Proof.
  intros A l a b. destruct (Nat.le_ge_cases (List.length l) a) as [H|H].
  - rewrite (Nat.min_r a), !skipn_all2, !firstn_nil by lia. reflexivity.
  - rewrite (Nat.min_l a) by exact H.
    rewrite <- (firstn_all (skipn a l)), !firstn_firstn, skipn_length.
    rewrite <- Nat.sub_min_distr_r, <- Nat.min_assoc, Nat.min_id. reflexivity.
Qed.

Definition desc (a b : obj) : Prop := o_idate a >= o_idate b.

Lemma insert_desc_perm : forall x l, Permutation (insert_desc x l) (x :: l).
Proof.
  induction l as [|y l IH]; simpl.
  - apply Permutation_refl.
  - destruct (o_idate x >=? o_idate y).
    + apply Permutation_refl.
    + eapply Permutation_trans; [apply perm_skip, IH | apply perm_swap].
Qed.

Lemma sort_desc_perm : forall l, Permutation (sort_desc l) l.
Proof.
  induction l as [|x l IH]; simpl.
  - constructor.
  - eapply Permutation_trans; [apply insert_desc_perm | apply perm_skip, IH].
Qed.

Lemma sort_desc_In : forall o l, In o (sort_desc l) <-> In o l.
Proof. intros; split; apply Permutation_in; [|symmetry]; apply sort_desc_perm. Qed.

Lemma insert_desc_top : forall x l, Forall (desc x) l -> insert_desc x l = x :: l.
Proof.
  intros x l [|y l' Hy _]; simpl; [reflexivity|].
  unfold desc in Hy. destruct (o_idate x >=? o_idate y) eqn:E; [reflexivity | lia].
Qed.

Lemma insert_desc_sorted : forall x l, StronglySorted desc l -> StronglySorted desc (insert_desc x l).
Proof.
  induction 1 as [|y l S IH Hy]; simpl.
  - repeat constructor.
  - destruct (o_idate x >=? o_idate y) eqn:E.
    + repeat constructor; try assumption; [unfold desc; lia|].
      eapply Forall_impl; [|exact Hy]. unfold desc. intros; lia.
    + constructor; [exact IH|]. apply (Permutation_Forall (Permutation_sym (insert_desc_perm x l))).
      constructor; [unfold desc; lia | exact Hy].
Qed.

Lemma sort_desc_sorted : forall l, StronglySorted desc (sort_desc l).
Proof.
  induction l as [|x l IH]; simpl; [constructor | apply insert_desc_sorted, IH].
Qed.

(* filtering commutes with the sort; stability is the case of the filter "Initial Date = k" *)
Lemma insert_desc_filter : forall (p : obj -> bool) x l, StronglySorted desc l ->
  filter p (insert_desc x l) = if p x then insert_desc x (filter p l) else filter p l.
Proof.
  induction 1 as [|y l _ IH Hy]; simpl.
  - destruct (p x); reflexivity.
  - destruct (o_idate x >=? o_idate y) eqn:E; simpl.
    + destruct (p x), (p y); simpl; rewrite ?E; try reflexivity.
      (* y is dropped; x is still no older than whatever is kept of l *)
      symmetry. apply insert_desc_top. eapply incl_Forall; [apply incl_filter|].
      eapply Forall_impl; [|exact Hy]. unfold desc. intros; lia.
    + rewrite IH. destruct (p x), (p y); simpl; rewrite ?E; reflexivity.
Qed.

Lemma filter_sort_desc : forall (p : obj -> bool) l, filter p (sort_desc l) = sort_desc (filter p l).
Proof.
  induction l as [|x l IH]; simpl; [reflexivity|].
  rewrite insert_desc_filter, IH by apply sort_desc_sorted. destruct (p x); reflexivity.
Qed.

(* stability: objects with the same initial date keep their store order *)
Lemma sort_desc_stable : forall k l,
  filter (fun o => o_idate o =? k) (sort_desc l) = filter (fun o => o_idate o =? k) l.
Proof.
  induction l as [|x l IH]; simpl; [reflexivity|].
  rewrite insert_desc_filter, IH by apply sort_desc_sorted.
  destruct (o_idate x =? k) eqn:E; [|reflexivity].
  apply insert_desc_top, Forall_forall. intros y Hy. apply filter_In in Hy. unfold desc. lia.
Qed.

Lemma sorted_perm_stable_unique : forall l1 l2,
  Permutation l1 l2 -> StronglySorted desc l1 -> StronglySorted desc l2 ->
  (forall k, filter (fun o => o_idate o =? k) l1 = filter (fun o => o_idate o =? k) l2) ->
  l1 = l2.
Proof.
  induction l1 as [|x l1 IH]; intros l2 P S1 S2 F.
  - apply Permutation_nil in P. subst. reflexivity.
  - destruct l2 as [|y l2]; [apply Permutation_sym, Permutation_nil in P; discriminate|].
    inversion S1 as [|? ? S1' A1]; subst. inversion S2 as [|? ? S2' A2]; subst.
    (* each head is no older than anything in its own list, hence in the other *)
    assert (Kxy : o_idate x = o_idate y).
    { assert (Hx : Forall (desc x) (y :: l2))
        by (apply (Permutation_Forall P); constructor; [unfold desc; lia | exact A1]).
      assert (Hy : Forall (desc y) (x :: l1))
        by (apply (Permutation_Forall (Permutation_sym P)); constructor; [unfold desc; lia | exact A2]).
      apply Forall_inv in Hx, Hy. unfold desc in *. lia. }
    pose proof (F (o_idate x)) as Fx. simpl in Fx.
    rewrite Z.eqb_refl in Fx. rewrite <- Kxy, Z.eqb_refl in Fx. inversion Fx; subst y.
    f_equal. apply IH; auto.
    + eapply Permutation_cons_inv; exact P.
    + intros k. specialize (F k). simpl in F. destruct (o_idate x =? k); [inversion F; reflexivity | exact F].
Qed.

(* Any list that is (1) a permutation of l0, (2) non-increasing in Initial Date and (3) keeps the order
   of l0 among equal dates IS `sort_desc l0`: the sort in `locate_spec` is only one way to write it. *)
Lemma sort_desc_unique : forall l0 l,
  Permutation l l0 -> StronglySorted desc l ->
  (forall k, filter (fun o => o_idate o =? k) l = filter (fun o => o_idate o =? k) l0) ->
  l = sort_desc l0.
Proof.
  intros l0 l P S F. apply sorted_perm_stable_unique; [|exact S | apply sort_desc_sorted|].
  - rewrite sort_desc_perm. exact P.
  - intros k. rewrite sort_desc_stable. apply F.
Qed.

Lemma sort_filter_nodup : forall (p : obj -> bool) l, NoDup (map o_uid l) -> NoDup (map o_uid (sort_desc (filter p l))).
Proof.
  intros p l ND. eapply Permutation_NoDup.
  - apply Permutation_map, Permutation_sym, sort_desc_perm.
  - apply NoDup_map_filter, ND.
Qed.

Lemma slice_sorted : forall {A} (R : A -> A -> Prop) off mx l, StronglySorted R l -> StronglySorted R (slice off mx l).
Proof.
  intros A R off mx l S. unfold slice.
  destruct mx; [apply StronglySorted_firstn|]; destruct off; try apply StronglySorted_skipn; exact S.
Qed.

Lemma py_slice_sorted : forall {A} (R : A -> A -> Prop) l lo hi, StronglySorted R l -> StronglySorted R (py_slice l lo hi).
Proof. intros. unfold py_slice. apply StronglySorted_firstn, StronglySorted_skipn. assumption. Qed.

Lemma page_sorted : forall {A} (R : A -> A -> Prop) l off mx, StronglySorted R l -> StronglySorted R (page l off mx).
Proof. intros A R l [o|] [m|] S; simpl; try apply py_slice_sorted; assumption. Qed.

Lemma py_slice_incl : forall {A} (l : list A) lo hi x, In x (py_slice l lo hi) -> In x l.
Proof. intros A l lo hi x H. unfold py_slice in H. eapply In_skipn, In_firstn, H. Qed.

Lemma page_incl : forall {A} (l : list A) off mx x, In x (page l off mx) -> In x l.
Proof. intros A l [o|] [m|] x H; simpl in H; try (eapply py_slice_incl; eassumption); assumption. Qed.

Lemma map_slice : forall {A B} (f : A -> B) off mx l, map f (slice off mx l) = slice off mx (map f l).
Proof.
  intros A B f off mx l. unfold slice.
  destruct off as [o|]; destruct mx as [m|]; rewrite ?skipn_map, ?firstn_map; reflexivity.
Qed.

Lemma py_norm_nonneg : forall n i, 0 <= i -> py_norm (Z.of_nat n) i = Z.of_nat (Nat.min (Z.to_nat i) n).
Proof. intros n i H. unfold py_norm. destruct (i <? 0) eqn:E; lia. Qed.

Definition nonneg (x : option Z) : Prop := match x with Some v => 0 <= v | None => True end.

(* rewriting, not `lia`: the min / to_nat / truncated subtraction mix makes its certificates very large *)
Lemma py_slice_nonneg : forall {A} (l : list A) lo hi, nonneg lo -> nonneg hi ->
  py_slice l lo hi =
  firstn (match hi with Some b => Z.to_nat b | None => List.length l end
          - match lo with Some a => Z.to_nat a | None => 0 end)
         (skipn (match lo with Some a => Z.to_nat a | None => 0 end) l).
Proof.
  intros A l lo hi Hlo Hhi. rewrite <- firstn_skipn_clamp. unfold py_slice.
  destruct lo as [a|], hi as [b|]; simpl in Hlo, Hhi; rewrite ?py_norm_nonneg by assumption;
    rewrite ?Z.sub_0_r, ?Z2Nat.inj_sub, ?Nat2Z.id, ?Nat.min_id by apply Nat2Z.is_nonneg; simpl;
    rewrite ?Nat.sub_0_r; reflexivity.
Qed.

Lemma page_slice : forall {A} (l : list A) off mx, nonneg off -> nonneg mx -> page l off mx = slice off mx l.
Proof.
  intros A l [o|] [m|] Ho Hm; simpl in *; unfold slice; rewrite ?py_slice_nonneg by (simpl; lia).
  - f_equal. lia.
  - apply firstn_all2. rewrite skipn_length. lia.
  - rewrite Nat.sub_0_r. reflexivity.
  - reflexivity.
Qed.

Definition nth_page {A} (n : nat) (l : list A) (k : nat) : list A := firstn n (skipn (k * n) l).

Lemma slice_nth_page : forall {A} (l : list A) n k,
  slice (Some (Z.of_nat k * Z.of_nat n)) (Some (Z.of_nat n)) l = nth_page n l k.
Proof.
  intros. unfold slice, nth_page. rewrite <- Nat2Z.inj_mul, !Nat2Z.id. reflexivity.
Qed.

Lemma pages_concat_firstn : forall {A} n (l : list A) m,
  concat (map (nth_page n l) (seq 0 m)) = firstn (m * n) l.
Proof.
  intros A n l. induction m as [|m IH].
  - reflexivity.
  - rewrite seq_S, map_app, concat_app, IH. simpl. rewrite app_nil_r.
    unfold nth_page. rewrite <- firstn_add. f_equal. lia.
Qed.

Lemma pages_disjoint_lt : forall {A} n (l : list A) i j x, NoDup l -> (i < j)%nat ->
  In x (nth_page n l i) -> ~ In x (nth_page n l j).
Proof.
  intros A n l i j x ND Hij Hi Hj. unfold nth_page in *.
  (* page i lies within the first j*n elements, page j within the rest *)
  assert (H1 : In x (firstn (j * n) l)).
  { replace (j * n)%nat with (i * n + (n + (j - i - 1) * n))%nat by nia.
    rewrite firstn_add. apply in_or_app; right.
    rewrite firstn_add. apply in_or_app; left. exact Hi. }
  apply In_firstn, in_split in Hj. destruct Hj as [a [b E]].
  rewrite <- (firstn_skipn (j * n) l), E, app_assoc in ND. apply NoDup_remove_2 in ND.
  apply ND, in_or_app; left. apply in_or_app; left. exact H1.
Qed.

Lemma pages_disjoint : forall {A} n (l : list A), NoDup l -> forall i j x, i <> j ->
  In x (nth_page n l i) -> ~ In x (nth_page n l j).
Proof.
  intros A n l ND i j x Hij Hi Hj. apply Nat.lt_gt_cases in Hij. destruct Hij as [H|H].
  - exact (pages_disjoint_lt n l i j x ND H Hi Hj).
  - exact (pages_disjoint_lt n l j i x ND H Hj Hi).
Qed.

(* a usage-mask filter asks only for bits enums.CryptographicUsageMask defines (undefined bits are dropped
   by get_enumerations_from_bit_mask before the comparison); every other filter is unconstrained *)
Definition mask_ok (f : afilter) : bool :=
  match f with
  | FMask m => Z.land m known_mask =? m
  | _ => true
  end.

(* the Python attribute the branch reads exists on the object's class (algorithm and length are read
   with getattr(..., None) and are always readable) *)
Definition readable (f : afilter) (o : obj) : bool :=
  match f with
  | FState _ | FMask _ => has_crypto_fields o
  | FCertType _ => has_cert_fields o
  | _ => true
  end.

(* the cause of a crash: an applicable filter (the loop fetches only those) asks for an attribute the object's
   class lacks *)
Definition unreadable (o : obj) (f : afilter) : Prop := applicable f (o_type o) = true /\ readable f o = false.

(* the server clock is past the epoch: `if initial_date.get("value")` treats 0 as absent *)
Definition wf_obj (o : obj) : Prop := o_idate o <> 0.

(* The loop never reads an attribute the object's class lacks: every filter the loop REACHES for this
   object (all earlier filters matched) is, when applicable, readable.  Executable.  With the generated rule
   table this holds for every object of the seven stored types (crash_free_stored below). *)
Fixpoint reach_ok (o : obj) (fs : list afilter) : bool :=
  match fs with
  | [] => true
  | f :: fs' =>
      (if applicable f (o_type o) then readable f o else true) &&
      (if matches o f then reach_ok o fs' else true)
  end.

Definition crash_free (objs : list obj) (fs : list afilter) : Prop :=
  forallb (fun o => reach_ok o fs) objs = true.

Definition wf_filters (fs : list afilter) : Prop :=
  forallb mask_ok fs = true /\ (List.length (filter_dates fs) <= 2)%nat.

Definition date_of (f : afilter) : list Z := match f with FDate d => [d] | _ => [] end.

Lemma filter_dates_cons : forall f fs, filter_dates (f :: fs) = date_of f ++ filter_dates fs.
Proof. reflexivity. Qed.

(* what the `initial_date` dictionary holds after the date filters `ds` were seen *)
Definition ds_of (o : obj) (ds : list Z) : dst :=
  match ds with
  | [d] => mkDst (Some (o_idate o)) (Some d) None
  | [d1; d2] => mkDst (Some (o_idate o)) (Some (Z.min d1 d2)) (Some (Z.max d1 d2))
  | _ => dst0
  end.

Lemma track_ds_of : forall o pre d, (List.length (pre ++ [d]) <= 2)%nat ->
  track (ds_of o pre) (o_idate o) d = Some (ds_of o (pre ++ [d])).
Proof.
  intros o pre d H. rewrite app_length in H. destruct pre as [|d1 [|d2 pre]]; simpl in *; try lia.
  - reflexivity.
  - unfold track; simpl. destruct (d >? d1) eqn:E.
    + rewrite Z.min_l, Z.max_r by lia. reflexivity.
    + rewrite Z.min_r, Z.max_l by lia. reflexivity.
Qed.

(* the check after the loop - `if initial_date.get("value")`, then `_is_valid_date` - is the specification's
   `date_match`, for an object created after the epoch *)
Lemma ds_of_check : forall o ds, wf_obj o -> (List.length ds <= 2)%nat ->
  (if truthy_date (d_value (ds_of o ds))
   then is_valid_date (match d_value (ds_of o ds) with Some v => v | None => 0 end)
                      (d_start (ds_of o ds)) (d_end (ds_of o ds))
   else true) = date_match ds (o_idate o).
Proof.
  intros o ds W L. assert (T : (o_idate o =? 0) = false) by (unfold wf_obj in W; lia).
  destruct ds as [|d1 [|d2 [|d3 ds]]]; simpl in L |- *; [reflexivity | | | lia]; rewrite T; simpl.
  - rewrite Z.eqb_sym. reflexivity.
  - destruct (o_idate o <? Z.min d1 d2) eqn:A, (o_idate o >? Z.max d1 d2) eqn:B; lia.
Qed.

(* how many of the `start` / `end` slots of the dictionary are taken *)
Definition seen (ds : dst) : nat :=
  ((match d_start ds with None => 0 | Some _ => 1 end) + (match d_end ds with None => 0 | Some _ => 1 end))%nat.

Lemma track_seen : forall ds v d,
  match track ds v d with Some ds' => (seen ds' <= S (seen ds))%nat | None => seen ds = 2%nat end.
Proof.
  intros ds v d. unfold track, seen. destruct (d_start ds) as [s|], (d_end ds); simpl; try lia.
  destruct (d >? s); simpl; lia.
Qed.

(* one fetch-and-compare on a non-date filter agrees with `matches`: in particular an object that has no
   value for the attribute (NULL column, class without the field, attribute the server does not keep)
   does not match *)
Lemma fetch_compare_matches : forall o f, mask_ok f = true ->
  applicable f (o_type o) = true -> readable f o = true ->
  fetch_compare o f = match f with FDate d => StDate (o_idate o) d | _ => cmp (matches o f) end.
Proof.
  intros o f S A R. unfold matches. rewrite A. rewrite andb_true_l.
  destruct f; simpl in *; try rewrite R; try reflexivity.
  - rewrite Z.eqb_sym. reflexivity.
  - rewrite Z.eqb_sym. reflexivity.
  - destruct (has_key_fields o); [|reflexivity]. destruct (o_alg o); [rewrite Z.eqb_sym|]; reflexivity.
  - destruct (has_key_fields o); [|reflexivity]. destruct (o_len o); [rewrite Z.eqb_sym|]; reflexivity.
  - apply Z.eqb_eq in S. rewrite S. reflexivity.
  - destruct (o_policy o); [rewrite String.eqb_sym|]; reflexivity.
  - rewrite Z.eqb_sym. reflexivity.
  - rewrite String.eqb_sym. reflexivity.
  - destruct b, (o_sensitive o); reflexivity.
Qed.

(* a comparison ends in StNext or StBreak; P and Q are arbitrary because the other two branches are unreachable,
   so `apply cmp_cases` closes any goal of this shape *)
Lemma cmp_cases : forall (P : Prop) (Q : Z -> Z -> Prop) b,
  match cmp b with StCrash => P | StDate v d => Q v d | _ => True end.
Proof. intros P Q []; exact I. Qed.

Lemma fetch_compare_cases : forall o f,
  match fetch_compare o f with
  | StCrash => readable f o = false
  | StDate _ d => f = FDate d
  | _ => True
  end.
Proof.
  intros o f. destruct f; simpl; try apply cmp_cases; try reflexivity.
  - destruct (has_crypto_fields o); [apply cmp_cases | reflexivity].
  - destruct (if has_key_fields o then o_alg o else None); [apply cmp_cases | exact I].
  - destruct (if has_key_fields o then o_len o else None); [apply cmp_cases | exact I].
  - destruct (has_crypto_fields o); [apply cmp_cases | reflexivity].
  - destruct (o_policy o); [apply cmp_cases | exact I].
  - destruct (has_cert_fields o); [apply cmp_cases | reflexivity].
Qed.

(* one turn of the loop, with the dictionary written as the date filters seen so far *)
Lemma obj_loop_step : forall o f fs pre, mask_ok f = true ->
  (if applicable f (o_type o) then readable f o else true) = true ->
  (List.length (pre ++ date_of f) <= 2)%nat ->
  obj_loop o (f :: fs) (ds_of o pre) =
  if matches o f then obj_loop o fs (ds_of o (pre ++ date_of f)) else Ok (false, ds_of o pre).
Proof.
  intros o f fs pre S R L. simpl obj_loop. destruct (applicable f (o_type o)) eqn:A.
  - rewrite (fetch_compare_matches o f S A R).
    destruct f; simpl date_of; rewrite ?app_nil_r; try (destruct (matches o _); reflexivity).
    replace (matches o (FDate d)) with true by (unfold matches; rewrite A; reflexivity).
    rewrite track_ds_of by exact L. reflexivity.
  - replace (matches o f) with false by (unfold matches; rewrite A; reflexivity). reflexivity.
Qed.

Lemma obj_loop_spec : forall o fs pre,
  forallb mask_ok fs = true ->
  reach_ok o fs = true ->
  (List.length (pre ++ filter_dates fs) <= 2)%nat ->
  exists ds', obj_loop o fs (ds_of o pre) = Ok (forallb (matches o) fs, ds') /\
              (forallb (matches o) fs = true -> ds' = ds_of o (pre ++ filter_dates fs)).
Proof.
  intros o. induction fs as [|f fs IH]; intros pre S R L.
  - eexists; split; [reflexivity|]. intros _. rewrite app_nil_r. reflexivity.
  - simpl in S, R. apply andb_true_iff in S. destruct S as [Sf Sfs].
    apply andb_true_iff in R. destruct R as [R1 R2].
    rewrite filter_dates_cons, app_assoc in L.
    (* `lia` on L alone: with ZifyBool loaded it also digests every boolean hypothesis in sight *)
    assert (Lf : (List.length (pre ++ date_of f) <= 2)%nat) by (clear - L; rewrite app_length in L; lia).
    rewrite obj_loop_step by assumption.
    simpl forallb. destruct (matches o f); cbn [andb].
    + destruct (IH (pre ++ date_of f) Sfs R2 L) as [ds' [E1 E2]].
      exists ds'. split; [exact E1|]. intros H. rewrite (E2 H), filter_dates_cons, app_assoc. reflexivity.
    + eexists; split; [reflexivity | discriminate].
Qed.

(* `selected` without the access decision: selected allowed fs o = allowed o && sel fs o *)
Definition sel (fs : list afilter) (o : obj) : bool :=
  forallb (matches o) fs && date_match (filter_dates fs) (o_idate o).

Lemma obj_selected_spec : forall o fs, wf_obj o -> wf_filters fs ->
  reach_ok o fs = true ->
  obj_selected o fs = Ok (sel fs o).
Proof.
  intros o fs W [S L] R. unfold obj_selected, sel.
  change dst0 with (ds_of o []).
  destruct (obj_loop_spec o fs [] S R L) as [ds' [E1 E2]].
  rewrite E1. destruct (forallb (matches o) fs); cbn [andb].
  - rewrite (E2 eq_refl). f_equal. apply ds_of_check; assumption.
  - destruct (truthy_date (d_value ds')); reflexivity.
Qed.

Lemma filter_objs_spec : forall fs os, Forall wf_obj os -> wf_filters fs -> crash_free os fs ->
  filter_objs os fs = Ok (filter (sel fs) os).
Proof.
  intros fs. induction os as [|o os IH]; intros W F C; simpl; [reflexivity|].
  inversion W; subst. unfold crash_free in C. simpl in C. apply andb_true_iff in C. destruct C as [C1 C2].
  rewrite (obj_selected_spec o fs) by assumption.
  rewrite IH; auto.
Qed.

Lemma filter_objs_nil : forall os, filter_objs os [] = Ok os.
Proof.
  induction os as [|o os IH]; simpl; [reflexivity|].
  unfold obj_selected. simpl. rewrite IH. reflexivity.
Qed.

(* the special case of `locate_objs` for a request without filters changes nothing *)
Lemma locate_objs_nil_immaterial : forall allowed objs fs,
  locate_objs allowed objs fs =
  match filter_objs (filter allowed objs) fs with Ok l => Ok (sort_desc l) | Refused => Refused | TooMany => TooMany | Crash => Crash end.
Proof.
  intros. unfold locate_objs. destruct fs; [rewrite filter_objs_nil|]; reflexivity.
Qed.

Definition stored_type (o : obj) : Prop := In (o_type o) [1; 2; 3; 4; 5; 7; 8].

(* the generated rule table, read once: State and Cryptographic Usage Mask are applicable to a stored
   type only if its class is a CryptographicObject, Certificate Type only to certificates *)
Lemma readable_table_check :
  forallb (fun t => implb (applicable (FState 0) t || applicable (FMask 0) t) (memZ t [1; 2; 3; 4; 5; 7])
                    && implb (applicable (FCertType 0) t) (t =? 1))
          [1; 2; 3; 4; 5; 7; 8] = true.
Proof. vm_compute. reflexivity. Qed.

(* whatever is applicable to a stored type is readable on its class; `applicable` looks at the filter's
   attribute name only *)
Lemma readable_by_table : forall f o, stored_type o -> applicable f (o_type o) = true -> readable f o = true.
Proof.
  intros f o T A. pose proof (proj1 (forallb_forall _ _) readable_table_check _ T) as H.
  apply andb_prop in H. destruct H as [H1 H2].
  destruct f; try reflexivity.
  - rewrite (A : applicable (FState 0) _ = true) in H1. exact H1.
  - rewrite (A : applicable (FMask 0) _ = true), orb_true_r in H1. exact H1.
  - rewrite (A : applicable (FCertType 0) _ = true) in H2. exact H2.
Qed.

Lemma crash_free_stored : forall objs fs, Forall stored_type objs -> crash_free objs fs.
Proof.
  intros objs fs T. unfold crash_free. apply forallb_forall. intros o Ho.
  eapply Forall_forall in T; [|exact Ho].
  induction fs as [|f fs IH]; simpl; [reflexivity|]. apply andb_true_iff. split.
  - destruct (applicable f (o_type o)) eqn:A; [exact (readable_by_table f o T A) | reflexivity].
  - destruct (matches o f); [exact IH | reflexivity].
Qed.

(* what an answer of the loop means, with no side condition: a third date filter was reached; some filter is
   unreadable on the object *)
Lemma obj_loop_cases : forall o fs ds,
  match obj_loop o fs ds with
  | Ok _ => True
  | Refused => False
  | TooMany => (seen ds + List.length (filter_dates fs) > 2)%nat
  | Crash => Exists (unreadable o) fs
  end.
Proof.
  intros o. induction fs as [|f fs IH]; intros ds; simpl obj_loop; [exact I|].
  destruct (applicable f (o_type o)) eqn:A; [|exact I].
  pose proof (fetch_compare_cases o f) as FC. rewrite filter_dates_cons, app_length.
  destruct (fetch_compare o f) as [| | |v d].
  - exact I.
  - specialize (IH ds). destruct (obj_loop o fs ds); try exact IH; [lia | apply Exists_cons_tl, IH].
  - apply Exists_cons_hd. split; assumption.
  - subst f. pose proof (track_seen ds v d) as T. destruct (track ds v d) as [ds'|]; [|simpl; lia].
    specialize (IH ds'). destruct (obj_loop o fs ds'); try exact IH; [simpl; lia | apply Exists_cons_tl, IH].
Qed.

Lemma obj_selected_cases : forall o fs,
  match obj_selected o fs with
  | Ok _ => True
  | Refused => False
  | TooMany => (List.length (filter_dates fs) > 2)%nat
  | Crash => Exists (unreadable o) fs
  end.
Proof.
  intros o fs. unfold obj_selected. pose proof (obj_loop_cases o fs dst0) as H.
  destruct (obj_loop o fs dst0) as [[add ds]| | |]; exact H.
Qed.

Lemma filter_objs_cases : forall fs os,
  match filter_objs os fs with
  | Ok l => l = filter (fun o => match obj_selected o fs with Ok true => true | _ => false end) os
  | Refused => False
  | TooMany => (List.length (filter_dates fs) > 2)%nat
  | Crash => Exists (fun o => Exists (unreadable o) fs) os
  end.
Proof.
  intros fs. induction os as [|o os IH]; simpl; [reflexivity|].
  pose proof (obj_selected_cases o fs) as H.
  destruct (obj_selected o fs) as [b| | |]; try exact H; [|apply Exists_cons_hd, H].
  destruct (filter_objs os fs) as [l| | |]; try exact IH; [|apply Exists_cons_tl, IH].
  subst l. destruct b; reflexivity.
Qed.

Lemma locate_objs_cases : forall allowed objs fs r, locate_objs allowed objs fs = r ->
  match r with
  | Ok l => exists p, l = sort_desc (filter p (filter allowed objs))
  | Refused => False
  | TooMany => (List.length (filter_dates fs) > 2)%nat
  | Crash => exists o f, In o objs /\ allowed o = true /\ In f fs /\ unreadable o f
  end.
Proof.
  intros allowed objs fs r <-. rewrite locate_objs_nil_immaterial.
  pose proof (filter_objs_cases fs (filter allowed objs)) as C.
  destruct (filter_objs (filter allowed objs) fs) as [l| | |]; try exact C.
  - subst l. eexists. reflexivity.
  - apply Exists_exists in C. destruct C as [o [Ho C]]. apply Exists_exists in C. destruct C as [f [Hf U]].
    apply filter_In in Ho. exists o, f. tauto.
Qed.

(* the whole operation: the version gate refuses exactly when some filter attribute is not supported under
   the version; every successful answer, whatever offset and maximum, pages the one list `locate_objs` built;
   a crash needs an object outside the seven stored types *)
Lemma locate_request_cases : forall ver allowed objs fs off mx r,
  locate_request ver allowed objs fs off mx = r ->
  match r with
  | Ok ids => gate_ok ver fs = true /\
              exists l, locate_objs allowed objs fs = Ok l /\ ids = map o_uid (page l off mx)
  | Refused => gate_ok ver fs = false
  | TooMany => (List.length (filter_dates fs) > 2)%nat
  | Crash => exists o f, In o objs /\ allowed o = true /\ In f fs /\
                         applicable f (o_type o) = true /\ readable f o = false /\ ~ stored_type o
  end.
Proof.
  intros ver allowed objs fs off mx r <-. unfold locate_request, locate_model.
  destruct (gate_ok ver fs); [|reflexivity].
  pose proof (locate_objs_cases allowed objs fs _ eq_refl) as C.
  destruct (locate_objs allowed objs fs) as [l| | |]; try exact C; [eauto | contradiction |].
  destruct C as (o & f & Ho & Ha & Hf & A & R). exists o, f. repeat split; try assumption.
  intros T. rewrite (readable_by_table f o T A) in R. discriminate.
Qed.

Lemma locate_request_ok : forall ver allowed objs fs l off mx,
  gate_ok ver fs = true -> locate_objs allowed objs fs = Ok l ->
  locate_request ver allowed objs fs off mx = Ok (map o_uid (page l off mx)).
Proof. intros ver allowed objs fs l off mx G E. unfold locate_request, locate_model. rewrite G, E. reflexivity. Qed.

Lemma locate_request_nodup : forall ver allowed objs fs full,
  locate_request ver allowed objs fs None None = Ok full -> NoDup (map o_uid objs) -> NoDup full.
Proof.
  intros ver allowed objs fs full H ND.
  apply locate_request_cases in H. destruct H as [_ [l [E ->]]].
  apply locate_objs_cases in E. destruct E as [p ->].
  apply sort_filter_nodup, NoDup_map_filter, ND.
Qed.

(* general form: crash freedom as a hypothesis (independent of the rule table) *)
Definition side_conditions_general (allowed : obj -> bool) (objs : list obj) (fs : list afilter) : Prop :=
  Forall wf_obj (filter allowed objs) /\ wf_filters fs /\ crash_free (filter allowed objs) fs.

(* the form used by the property theorems: the visible objects are of the seven stored types and were
   created after the epoch; mask filters stay within the defined bits; at most two date filters *)
Definition side_conditions (allowed : obj -> bool) (objs : list obj) (fs : list afilter) : Prop :=
  Forall (fun o => wf_obj o /\ stored_type o) (filter allowed objs) /\ wf_filters fs.

(* the same as a test, for concrete stores and requests *)
Definition side_conditions_b (allowed : obj -> bool) (objs : list obj) (fs : list afilter) : bool :=
  forallb (fun o => negb (o_idate o =? 0) && memZ (o_type o) [1; 2; 3; 4; 5; 7; 8]) (filter allowed objs)
  && forallb mask_ok fs && (List.length (filter_dates fs) <=? 2)%nat.

Lemma side_conditions_b_true : forall allowed objs fs,
  side_conditions_b allowed objs fs = true -> side_conditions allowed objs fs.
Proof.
  intros allowed objs fs. unfold side_conditions_b, side_conditions, wf_filters.
  rewrite !andb_true_iff, forallb_forall, Forall_forall, Nat.leb_le. intros [[H M] L]. split; [|tauto].
  intros o Ho. apply H, andb_true_iff in Ho. destruct Ho as [W T]. split; [unfold wf_obj; clear - W; lia|].
  apply existsb_exists in T. destruct T as [t [Ht E]]. apply Z.eqb_eq in E. unfold stored_type. rewrite E. exact Ht.
Qed.

Lemma side_conditions_imply_general : forall allowed objs fs,
  side_conditions allowed objs fs -> side_conditions_general allowed objs fs.
Proof.
  intros allowed objs fs [W F]. split; [|split].
  - eapply Forall_impl; [|exact W]. simpl. tauto.
  - exact F.
  - apply crash_free_stored. eapply Forall_impl; [|exact W]. simpl. tauto.
Qed.

Lemma locate_objs_refines_general : forall allowed objs fs, side_conditions_general allowed objs fs ->
  locate_objs allowed objs fs = Ok (spec_objs allowed objs fs).
Proof.
  intros allowed objs fs (W & F & C). rewrite locate_objs_nil_immaterial.
  rewrite filter_objs_spec by assumption. unfold spec_objs.
  rewrite filter_filter. f_equal. f_equal. apply filter_ext. intros o. apply andb_assoc.
Qed.

Lemma locate_objs_refines : forall allowed objs fs, side_conditions allowed objs fs ->
  locate_objs allowed objs fs = Ok (spec_objs allowed objs fs).
Proof. intros. apply locate_objs_refines_general, side_conditions_imply_general. assumption. Qed.

Lemma locate_model_refines_general : forall allowed objs fs off mx,
  side_conditions_general allowed objs fs -> nonneg off -> nonneg mx ->
  locate_model allowed objs fs off mx = Ok (locate_spec allowed objs fs off mx).
Proof.
  intros allowed objs fs off mx SC Ho Hm. unfold locate_model, locate_spec.
  rewrite (locate_objs_refines_general _ _ _ SC). rewrite page_slice by assumption. reflexivity.
Qed.

Lemma selected_iff : forall allowed fs o,
  selected allowed fs o = true <->
  allowed o = true /\ (forall f, In f fs -> matches o f = true) /\ date_match (filter_dates fs) (o_idate o) = true.
Proof.
  intros. unfold selected. rewrite !andb_true_iff, forallb_forall. tauto.
Qed.

Lemma spec_objs_In : forall allowed objs fs o,
  In o (spec_objs allowed objs fs) <-> In o objs /\ selected allowed fs o = true.
Proof. intros. unfold spec_objs. rewrite sort_desc_In. apply filter_In. Qed.

Lemma spec_objs_nodup : forall allowed objs fs, NoDup (map o_uid objs) -> NoDup (map o_uid (spec_objs allowed objs fs)).
Proof. intros allowed objs fs. apply sort_filter_nodup. Qed.

Lemma selected_app : forall allowed fs1 fs2 o, filter_dates fs1 = [] ->
  selected allowed (fs1 ++ fs2) o = forallb (matches o) fs1 && selected allowed fs2 o.
Proof.
  intros allowed fs1 fs2 o H. unfold selected, filter_dates in *. rewrite forallb_app, flat_map_app, H.
  destruct (allowed o), (forallb (matches o) fs1); reflexivity.
Qed.

Lemma spec_objs_conj : forall allowed objs fs1 fs2, filter_dates fs1 = [] ->
  spec_objs allowed objs (fs1 ++ fs2) = filter (fun o => forallb (matches o) fs1) (spec_objs allowed objs fs2).
Proof.
  intros allowed objs fs1 fs2 H. unfold spec_objs.
  rewrite filter_sort_desc, filter_filter. f_equal. apply filter_ext. intros o.
  rewrite (selected_app _ _ _ _ H). apply andb_comm.
Qed.

Lemma date_match_perm : forall d1 d2 v, Permutation d1 d2 -> date_match d1 v = date_match d2 v.
Proof.
  intros d1 d2 v H.
  assert (Hl := Permutation_length H).
  destruct d1 as [|a [|b [|c d1]]]; destruct d2 as [|a' [|b' [|c' d2]]]; simpl in Hl; try discriminate; try reflexivity.
  - apply Permutation_length_1 in H. subst. reflexivity.
  - apply Permutation_length_2 in H. destruct H as [[-> ->]|[-> ->]]; simpl; [reflexivity|].
    rewrite Z.min_comm, Z.max_comm. reflexivity.
Qed.

Lemma selected_perm : forall allowed fs fs' o, Permutation fs fs' -> selected allowed fs o = selected allowed fs' o.
Proof.
  intros allowed fs fs' o P. unfold selected, filter_dates.
  rewrite (forallb_perm _ _ _ P), (date_match_perm _ _ _ (Permutation_flat_map _ P)). reflexivity.
Qed.

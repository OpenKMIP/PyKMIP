(* The engine's side of the policy store (property C18: the policies IN FORCE are what the engine applies).

   engine_decision dtab store name ... : the decision KmipEngine._is_allowed_by_operation_policy takes for an
   object whose Operation Policy Name is `name`, when get_relevant_policy_section reads the SHARED store at
   request time.  The three functions are gen/EnginePolicy.v (tie T: emitted only when the source reads the
   store on every call and keeps nothing).  The store maps names to definition ids (Monitor.v); `dtab` gives
   the parsed policy (Parse.parsed, the parser's output type) behind an id.

   spec_decision : the same decision over the SPECIFICATION's map (Spec.spec_store: the definition in the most
   recently loaded present file that still defines the name; built-ins for reserved names; nothing otherwise).

   engine_follows_spec: after any history the monitor refines, the two decisions agree (both are decision_of at the
   same entry, by Refine.run_refines_spec). *)
From Coq Require Import ZArith List Bool String.
From PK Require Import Monitor.AList Monitor.Monitor Monitor.Spec Monitor.Parse Monitor.Refine.
From PKGen Require Import EnginePolicy.
Import ListNotations.
Open Scope Z_scope.

Definition decision_of (dtab : defid -> option parsed) (entry : option defid)
                       (owner object_type operation user : string) (groups : option (list string)) : bool :=
  allowed_for_identity (match entry with Some d => dtab d | None => None end) object_type operation user owner groups.

Definition engine_decision (dtab : defid -> option parsed) (store : list (pname * defid)) (name : pname) :=
  decision_of dtab (get name store).

Definition spec_decision (dtab : defid -> option parsed) (a : astate) (name : pname) :=
  decision_of dtab (spec_store a name).

(* a name without definition grants to nobody *)
Lemma decision_of_none : forall dtab owner ot op user groups, decision_of dtab None owner ot op user groups = false.
Proof.
  intros. unfold decision_of, allowed_for_identity. destruct groups as [gs|]; simpl; [|reflexivity].
  induction gs as [|g r IH]; simpl; auto.
Qed.

Theorem engine_follows_spec : forall purge dtab s h, Forall wf_fs h -> purge || hist_ok s h = true ->
  forall name owner ot op user groups,
    engine_decision dtab (st_store (run_gen purge s h)) name owner ot op user groups =
    spec_decision dtab (spec_run s h) name owner ot op user groups.
Proof. intros. unfold engine_decision, spec_decision. now rewrite run_refines_spec. Qed.

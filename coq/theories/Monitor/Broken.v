(* A file that does not parse has no effect on store, owner map and cache, whatever its
   mtime: a scan that sees it as changed (and broken) gives the same result as a scan that
   sees it untouched.  In particular a valid file that becomes invalid keeps its old
   definitions in force.  The two directory views give the same file events (load_plan_broken,
   scan_plan_broken), hence the same views. *)
From Coq Require Import ZArith List Bool.
From PK Require Import Monitor.AList Monitor.AListProofs Monitor.Monitor Monitor.Spec Monitor.Views Monitor.Refine.
Import ListNotations.
Open Scope Z_scope.

Definition broken_in (fs fs' : fs_view) (g : fname) : Prop :=
  exists t t', get g fs = Some (t, None) /\ get g fs' = Some (t', None).

(* the two directory views hold the same files, and differ at most in the mtime of files
   that are invalid in both *)
Definition same_but_broken (fs fs' : fs_view) : Prop :=
  keys fs = keys fs' /\ forall g, get g fs = get g fs' \/ broken_in fs fs' g.

Lemma fst_let : forall {A B C} (X : A * B) (g : A -> C),
  fst (let (a, b) := X in (g a, b)) = g (fst X).
Proof. intros A B C [a b] g. reflexivity. Qed.

(* an invalid file contributes no event; at most its mtime is recorded *)
Lemma load_plan_invalid : forall fs ts (f : fname) (r : list fname) t, get f fs = Some (t, None) ->
  exists ts1, (ts1 = ts \/ ts1 = set f t ts) /\ fst (load_plan fs ts (f :: r)) = fst (load_plan fs ts1 r).
Proof.
  intros fs ts f r t H. rewrite load_plan_cons. unfold due. rewrite H.
  destruct (get f ts) as [t0|]; [destruct (t >? t0)|]; rewrite ?fst_let; eauto.
Qed.

(* the time stamps may differ at invalid files *)
Lemma load_plan_broken : forall fs fs', same_but_broken fs fs' ->
  forall todo ts ts', (forall g, get g ts = get g ts' \/ broken_in fs fs' g) ->
  fst (load_plan fs ts todo) = fst (load_plan fs' ts' todo).
Proof.
  intros fs fs' [Hk Hs]. induction todo as [|f r IH]; intros ts ts' Hts; [reflexivity|].
  assert (Hbroken : broken_in fs fs' f -> fst (load_plan fs ts (f :: r)) = fst (load_plan fs' ts' (f :: r))).
  { intros (t & t' & H1 & H2).
    destruct (load_plan_invalid fs ts f r t H1) as (tsa & Ha & ->).
    destruct (load_plan_invalid fs' ts' f r t' H2) as (tsb & Hb & ->).
    apply IH. intros g.
    destruct (Z.eq_dec g f) as [->|Hne]; [right; exists t, t'; auto|].
    apply Z.eqb_neq in Hne.
    destruct Ha as [->| ->], Hb as [->| ->]; rewrite ?get_set, ?Hne; apply Hts. }
  destruct (Hs f) as [Hf | Hb]; [|now apply Hbroken].
  destruct (Hts f) as [Ht | Hb]; [|now apply Hbroken].
  rewrite !load_plan_cons.
  replace (due fs' ts' f) with (due fs ts f) by (unfold due; now rewrite Hf, Ht).
  destruct (due fs ts f) as [[t content]|]; [|now apply IH].
  rewrite !fst_let, (IH (set f t ts) (set f t ts')); [reflexivity|].
  intros g. rewrite !get_set. destruct (g =? f); [now left | apply Hts].
Qed.

Lemma scan_plan_broken : forall fs fs' ts files, same_but_broken fs fs' ->
  fst (scan_plan fs ts files) = fst (scan_plan fs' ts files).
Proof.
  intros fs fs' ts files H. unfold scan_plan. rewrite <- (proj1 H). cbv zeta.
  set (ts2 := fold_left (fun ts f => del f ts) _ _).
  pose proof (load_plan_broken fs fs' H (sortZ (keys ts2)) ts2 ts2 (fun g => or_introl eq_refl)) as L.
  destruct (load_plan fs ts2 _) as [ops ts3], (load_plan fs' ts2 _) as [ops' ts3'].
  simpl in *. now rewrite L.
Qed.

Theorem broken_no_effect_scan : forall purge fs fs' m, wfm m -> wf_fs fs -> wf_fs fs' -> same_but_broken fs fs' ->
  forall q, view_of (scan_gen purge fs m) q = view_of (scan_gen purge fs' m) q.
Proof.
  intros purge fs fs' m Hw H1 H2 Hs q.
  destruct (scan_view purge fs m Hw H1) as (A & _). destruct (scan_view purge fs' m Hw H2) as (B & _).
  now rewrite A, B, (scan_plan_broken fs fs' _ _ Hs).
Qed.

(* Per-name view of the monitor state, and the characterisation of every step of
   scan_policies as a per-name function: the names never interact.
   Start from scan_view: a whole scan is, name by name, a fold of vstep over the scan's plan.  Loops are entered
   through fold_left_inv / keeps_fold. *)
From Coq Require Import ZArith List Bool.
From PK Require Import Monitor.AList Monitor.AListProofs Monitor.Monitor Monitor.Spec.
Import ListNotations.
Open Scope Z_scope.

(* simpl would expand the whole loop body at every step of fold_left (load_policy f) *)
Arguments load_policy : simpl never.

Definition view := (option defid * option fname * option (list centry))%type.

Definition view_of (m : mstate) (q : pname) : view :=
  (get q (st_store m), get q (st_map m), get q (st_cache m)).

Definition notf (f : fname) (e : centry) : bool := negb (fst e =? f).
(* kept folded by simpl: the lemmas on filter (notf f) are stated with it *)
Arguments notf : simpl never.

(* the operations of a scan, from here to vstep, each on the view of one name *)
Definition v_disassoc (f : fname) (v : view) : view :=
  let '(s, o, c) := v in (s, o, option_map (filter (notf f)) c).

(* kept folded by simpl: the view lemmas below rewrite with v_disassoc f as it stands *)
Arguments v_disassoc : simpl never.

Definition v_restore (v : view) : view :=
  let '(s, o, c) := v in
  match c with
  | None | Some [] => (None, None, None)
  | Some (e :: c') => (Some (snd e), Some (fst e), Some c')
  end.

Definition owner_is (f : fname) (v : view) : bool :=
  match snd (fst v) with Some o => o =? f | None => false end.

Definition v_remove (f : fname) (v : view) : view :=
  let v1 := v_disassoc f v in if owner_is f v1 then v_restore v1 else v1.

Definition v_load (f : fname) (d : defid) (v : view) : view :=
  let '(s, o, c) := v in
  match s with
  | Some d0 =>
      match o, c with
      | Some o', Some c' => if negb (f =? o') then (Some d, Some f, Some ((o', d0) :: c')) else (Some d, Some f, Some c')
      | _, _ => (Some d, Some f, c)
      end
  | None => (Some d, Some f, Some [])
  end.

Definition v_loadfile (purge : bool) (f : fname) (ds : defs) (q : pname) (v : view) : view :=
  match get q ds with
  | Some d => if reserved q then v else v_load f d v
  | None => if purge then v_remove f v else if owner_is f v then v_restore (v_disassoc f v) else v
  end.

Definition vstep (purge : bool) (q : pname) (v : view) (o : fop) : view :=
  match o with
  | OpRemove f => v_remove f v
  | OpLoad f ds => v_loadfile purge f ds q v
  end.

Definition wfm (m : mstate) : Prop := NoDup (keys (st_map m)).

Lemma v_disassoc_idem : forall f v, v_disassoc f (v_disassoc f v) = v_disassoc f v.
Proof. intros f [[s o] [c|]]; unfold v_disassoc; simpl; [now rewrite filter_idem | reflexivity]. Qed.

Lemma v_disassoc_uncached : forall f m q,
  (if has q (st_cache m) then v_disassoc f (view_of m q) else view_of m q) = v_disassoc f (view_of m q).
Proof. intros. unfold has, view_of, v_disassoc. now destruct (get q (st_cache m)). Qed.

Lemma owner_disassoc : forall f v, owner_is f (v_disassoc f v) = owner_is f v.
Proof. now intros f [[s o] c]. Qed.

Lemma fold_left_inv : forall {A B} (P : A -> Prop) (g : A -> B -> A) l a,
  (forall a x, P a -> P (g a x)) -> P a -> P (fold_left g l a).
Proof. induction l; simpl; intros; auto. Qed.

(* The steps on single names leave time stamps and file list alone and keep the keys of
   the owner map distinct. *)
Definition keeps (m m' : mstate) : Prop :=
  st_ts m' = st_ts m /\ st_files m' = st_files m /\ (wfm m -> wfm m').

Lemma keeps_trans : forall m1 m2 m3, keeps m1 m2 -> keeps m2 m3 -> keeps m1 m3.
Proof. intros m1 m2 m3 (T & F & W) (T' & F' & W'). repeat split; [now rewrite T' | now rewrite F' | auto]. Qed.

Lemma keeps_fold : forall {B} (g : mstate -> B -> mstate),
  (forall m x, keeps m (g m x)) -> forall l m, keeps m (fold_left g l m).
Proof.
  intros B g H l m. apply (fold_left_inv (keeps m)); [|repeat split; auto].
  intros m' x K. exact (keeps_trans _ _ _ K (H m' x)).
Qed.

Lemma keeps_disassociate : forall f m p, keeps m (disassociate p f m).
Proof. intros. unfold disassociate. destruct (get p (st_cache m)); repeat split; auto. Qed.

Lemma keeps_restore : forall m p, keeps m (restore_or_delete p m).
Proof.
  intros. unfold restore_or_delete, keeps, wfm.
  destruct (get p (st_cache m)) as [[|e c]|]; simpl; auto using nodup_keys_del, nodup_keys_set.
Qed.

Lemma keeps_load_policy : forall f m pd, keeps m (load_policy f m pd).
Proof.
  intros f m [p d]. unfold load_policy, keeps, wfm. destruct (reserved p); [auto|].
  destruct (has p (st_store m)); [|simpl; auto using nodup_keys_set].
  destruct (get p (st_map m)) as [o|], (get p (st_store m)), (get p (st_cache m));
    try destruct (negb (f =? o)); simpl; auto using nodup_keys_set.
Qed.

Lemma view_disassociate : forall f m p q,
  view_of (disassociate p f m) q = if q =? p then v_disassoc f (view_of m q) else view_of m q.
Proof.
  intros. unfold disassociate, view_of.
  destruct (get p (st_cache m)) eqn:E; simpl; rewrite ?get_set;
    destruct (q =? p) eqn:Eq; try reflexivity;
    apply Z.eqb_eq in Eq; subst; now rewrite E.
Qed.

Lemma view_restore : forall m p q,
  view_of (restore_or_delete p m) q = if q =? p then v_restore (view_of m q) else view_of m q.
Proof.
  intros. unfold restore_or_delete, view_of.
  destruct (get p (st_cache m)) as [[|e c]|] eqn:E; simpl; rewrite ?get_del, ?get_set;
    destruct (q =? p) eqn:Eq; try reflexivity;
    apply Z.eqb_eq in Eq; subst; now rewrite E.
Qed.

Lemma view_drop : forall f m p q,
  view_of (restore_or_delete p (disassociate p f m)) q =
  if q =? p then v_restore (v_disassoc f (view_of m q)) else view_of m q.
Proof. intros. rewrite view_restore, view_disassociate. now destruct (q =? p). Qed.

Lemma view_load_policy : forall f m p d q,
  view_of (load_policy f m (p, d)) q =
  if reserved p then view_of m q else if q =? p then v_load f d (view_of m q) else view_of m q.
Proof.
  intros. unfold load_policy. destruct (reserved p); [reflexivity|].
  unfold has, view_of, v_load. destruct (q =? p) eqn:Eq.
  - (* the name that is loaded: in each case of the code, read back what was just set *)
    apply Z.eqb_eq in Eq; subst q.
    destruct (get p (st_store m)) as [d0|];
      [destruct (get p (st_map m)) as [o|], (get p (st_cache m)) as [c|] eqn:Ec; try destruct (negb (f =? o))|];
      simpl; rewrite ?get_set, ?Z.eqb_refl, ?Ec; reflexivity.
  - (* any other name: every write is a `set p` *)
    destruct (get p (st_store m)) as [d0|];
      [destruct (get p (st_map m)) as [o|], (get p (st_cache m)) as [c|]; try destruct (negb (f =? o))|];
      simpl; rewrite ?get_set, ?Eq; reflexivity.
Qed.

(* A step that acts on the one name it is given, run over a list of names: every listed name
   is hit once, provided the list has no repetition or hitting twice is hitting once. *)
Lemma view_fold_names : forall (g : mstate -> pname -> mstate) (phi : view -> view),
  (forall m p q, view_of (g m p) q = if q =? p then phi (view_of m q) else view_of m q) ->
  forall ps, NoDup ps \/ (forall v, phi (phi v) = phi v) ->
  forall m q, view_of (fold_left g ps m) q = if memZ q ps then phi (view_of m q) else view_of m q.
Proof.
  intros g phi Hg. induction ps as [|p ps IH]; intros Hd m q; simpl; [reflexivity|].
  rewrite IH, Hg by (destruct Hd as [Hd|Hd]; [left; now inversion Hd | now right]).
  destruct (q =? p) eqn:E; simpl; [|reflexivity].
  destruct (memZ q ps) eqn:M; [|reflexivity].
  destruct Hd as [Hd|Hd]; [|apply Hd].
  apply Z.eqb_eq in E; subst q. apply memZ_In in M. now inversion Hd.
Qed.

Lemma view_fold_load_policy : forall f ds m q, NoDup (keys ds) ->
  view_of (fold_left (load_policy f) ds m) q =
  match get q ds with
  | Some d => if reserved q then view_of m q else v_load f d (view_of m q)
  | None => view_of m q
  end.
Proof.
  induction ds as [|[p d] r IH]; intros m q Hn; [reflexivity|].
  inversion Hn as [|? ? Hni Hr]; subst.
  simpl fold_left. rewrite IH by assumption. rewrite view_load_policy.
  simpl get. destruct (q =? p) eqn:E.
  - apply Z.eqb_eq in E; subst. apply get_None_iff in Hni. rewrite Hni. reflexivity.
  - destruct (reserved p); reflexivity.
Qed.

Lemma nodup_owned : forall f m, wfm m -> NoDup (owned f m).
Proof.
  intros f m. unfold wfm, owned, keys. induction (st_map m) as [|[k o] r IH]; simpl; intros H; [constructor|].
  inversion H as [|? ? Hni Hr]; subst.
  destruct (o =? f); simpl; auto. constructor; auto.
  intros Hin. apply Hni. apply in_map_iff in Hin as [y [H1 H2]].
  apply filter_In in H2. apply in_map_iff. exists y. tauto.
Qed.

Lemma mem_owned : forall f m q, wfm m -> memZ q (owned f m) = owner_is f (view_of m q).
Proof.
  intros f m q H. unfold owner_is, view_of, owned; simpl.
  apply eq_true_iff_eq. rewrite memZ_In, in_map_iff. split.
  - intros [[k o] [H1 H2]]. simpl in H1; subst k. apply filter_In in H2 as [H2 H3].
    now rewrite (In_get _ _ _ H H2).
  - destruct (get q (st_map m)) as [o|] eqn:E; [|discriminate].
    intros Ho. exists (q, o). split; [reflexivity|]. apply filter_In. split; [now apply get_In | exact Ho].
Qed.

Lemma remove_file_spec : forall f m, wfm m ->
  (forall q, view_of (remove_file f m) q = v_remove f (view_of m q)) /\
  st_ts (remove_file f m) = del f (st_ts m) /\ st_files (remove_file f m) = st_files m /\
  wfm (remove_file f m).
Proof.
  intros f m Hw. unfold remove_file. cbv zeta.
  set (m1 := with_ts (del f (st_ts m)) m).
  set (m2 := fold_left (fun m p => disassociate p f m) (keys (st_cache m1)) m1).
  destruct (keeps_fold _ (keeps_disassociate f) _ _ : keeps m1 m2) as (T2 & F2 & W2).
  destruct (keeps_fold _ keeps_restore (owned f m2) m2) as (T3 & F3 & W3).
  rewrite T3, F3, T2, F2. repeat split; auto.
  intros q. rewrite (view_fold_names _ _ view_restore) by (left; apply nodup_owned; auto).
  rewrite mem_owned by auto.
  unfold m2. rewrite (view_fold_names _ _ (view_disassociate f)) by (right; apply v_disassoc_idem).
  rewrite memZ_keys_has. apply (f_equal (fun v => if owner_is f v then v_restore v else v)).
  apply (v_disassoc_uncached f m q).
Qed.

(* what the loop over the tracked files and the specification's load_plan both ask of a file:
   is it there, with an mtime greater than the one last seen *)
Definition due (fs : fs_view) (ts : list (fname * Z)) (f : fname) : option (Z * option defs) :=
  match get f fs, get f ts with
  | Some (t, content), Some t0 => if t >? t0 then Some (t, content) else None
  | _, _ => None
  end.

Lemma load_plan_cons : forall fs ts f r,
  load_plan fs ts (f :: r) =
  match due fs ts f with
  | Some (t, content) =>
      let (ops, ts') := load_plan fs (set f t ts) r in
      (match content with Some ds => OpLoad f ds :: ops | None => ops end, ts')
  | None => load_plan fs ts r
  end.
Proof.
  intros. unfold due. simpl.
  destruct (get f fs) as [[t content]|], (get f ts) as [t0|]; try reflexivity. now destruct (t >? t0).
Qed.

Lemma load_file_spec : forall purge fs m f, wfm m -> wf_fs fs ->
  st_files (load_file_gen purge fs m f) = st_files m /\ wfm (load_file_gen purge fs m f) /\
  match due fs (st_ts m) f with
  | Some (t, content) =>
      st_ts (load_file_gen purge fs m f) = set f t (st_ts m) /\
      forall q, view_of (load_file_gen purge fs m f) q =
                match content with Some ds => v_loadfile purge f ds q (view_of m q) | None => view_of m q end
  | None =>
      st_ts (load_file_gen purge fs m f) = st_ts m /\
      forall q, view_of (load_file_gen purge fs m f) q = view_of m q
  end.
Proof.
  intros purge fs m f Hw [_ Hfs]. unfold load_file_gen, due.
  destruct (get f fs) as [[t content]|] eqn:Ef; destruct (get f (st_ts m)) as [t0|] eqn:Et; auto.
  destruct (t >? t0); auto.
  destruct content as [ds|]; auto. cbv zeta.
  set (m1 := with_ts (set f t (st_ts m)) m).
  set (m2 := fold_left (load_policy f) ds m1).
  set (dropped := filter (fun p => negb (memZ p (keys ds))) (owned f m1)).
  assert (Hnd : NoDup (keys ds)) by (eapply Hfs; apply get_In; exact Ef).
  assert (Hdd : NoDup dropped) by apply NoDup_filter, nodup_owned, Hw.
  destruct (keeps_fold _ (keeps_load_policy f) _ _ : keeps m1 m2) as (T2 & F2 & W2).
  pose proof (fun q => view_fold_load_policy f ds m1 q Hnd) as V2. fold m2 in V2.
  assert (D : forall q, memZ q dropped = match get q ds with Some _ => false | None => owner_is f (view_of m q) end).
  { intros q. unfold dropped. rewrite memZ_filter, memZ_keys_has, (mem_owned f m1) by exact Hw.
    unfold has. now destruct (get q ds). }
  destruct purge.
  - set (stale := filter (fun p => negb (memZ p (keys ds))) (keys (st_cache m2))).
    set (m3 := fold_left (fun m p => disassociate p f m) stale m2).
    destruct (keeps_fold _ (keeps_disassociate f) _ _ : keeps m2 m3) as (T3 & F3 & W3).
    destruct (keeps_fold _ keeps_restore dropped m3) as (T4 & F4 & W4).
    rewrite T4, F4, T3, F3, T2, F2. repeat split; auto.
    intros q. rewrite (view_fold_names _ _ view_restore), D by now left.
    unfold m3. rewrite (view_fold_names _ _ (view_disassociate f)) by (right; apply v_disassoc_idem).
    unfold stale. rewrite memZ_filter, (memZ_keys_has ds). unfold has. rewrite memZ_keys_has.
    unfold v_loadfile. specialize (V2 q). destruct (get q ds) as [d|]; simpl; [exact V2|].
    rewrite v_disassoc_uncached, V2. unfold v_remove. now rewrite owner_disassoc.
  - destruct (keeps_fold _ (fun m p => keeps_trans _ _ _ (keeps_disassociate f m p) (keeps_restore _ p))
                dropped m2) as (T3 & F3 & W3).
    rewrite T3, F3, T2, F2. repeat split; auto.
    intros q. rewrite (view_fold_names _ (fun v => v_restore (v_disassoc f v)) (view_drop f)), D by now left.
    unfold v_loadfile. specialize (V2 q). destruct (get q ds); rewrite V2; reflexivity.
Qed.

Lemma load_loop_spec : forall purge fs todo m, wfm m -> wf_fs fs ->
  let m' := fold_left (load_file_gen purge fs) todo m in
  let pl := load_plan fs (st_ts m) todo in
  (forall q, view_of m' q = fold_left (vstep purge q) (fst pl) (view_of m q)) /\
  st_ts m' = snd pl /\ st_files m' = st_files m /\ wfm m'.
Proof.
  intros purge fs. induction todo as [|f r IH]; intros m Hw Hfs; [simpl; auto|].
  simpl fold_left. rewrite load_plan_cons.
  destruct (load_file_spec purge fs m f Hw Hfs) as (Sf & Sw & S).
  specialize (IH (load_file_gen purge fs m f) Sw Hfs). simpl in IH. rewrite Sf in IH.
  destruct (due fs (st_ts m) f) as [[t content]|]; destruct S as (St & Sv); rewrite St in IH.
  - destruct (load_plan fs (set f t (st_ts m)) r) as [ops ts']. destruct IH as (I1 & I2).
    split; [|exact I2]. intros q. rewrite I1, Sv. now destruct content.
  - destruct IH as (I1 & I2). split; [|exact I2]. intros q. now rewrite I1, Sv.
Qed.

Lemma remove_loop_spec : forall purge fsr m, wfm m ->
  let m' := fold_left (fun m f => remove_file f m) fsr m in
  (forall q, view_of m' q = fold_left (vstep purge q) (map OpRemove fsr) (view_of m q)) /\
  st_ts m' = fold_left (fun ts f => del f ts) fsr (st_ts m) /\ st_files m' = st_files m /\ wfm m'.
Proof.
  intros purge. induction fsr as [|f r IH]; intros m Hw; [simpl; auto|].
  simpl. destruct (remove_file_spec f m Hw) as (V & T & F & W).
  destruct (IH (remove_file f m) W) as (I1 & I2 & I3 & I4).
  rewrite I2, I3, T, F. split; [|auto]. intros q. now rewrite I1, V.
Qed.

Lemma add_loop_spec : forall added m,
  fold_left (fun m f => with_ts (set f 0 (st_ts m)) m) added m =
  with_ts (fold_left (fun ts f => set f 0 ts) added (st_ts m)) m.
Proof. induction added as [|f r IH]; intros m; simpl; [now destruct m | now rewrite IH]. Qed.

(* scan_policies as a whole: for every name the sequence of file events of the plan,
   which depends on the directory, the time stamps and the file list only *)
Theorem scan_view : forall purge fs m, wfm m -> wf_fs fs ->
  let pl := scan_plan fs (st_ts m) (st_files m) in
  (forall q, view_of (scan_gen purge fs m) q = fold_left (vstep purge q) (fst pl) (view_of m q)) /\
  st_ts (scan_gen purge fs m) = snd pl /\ st_files (scan_gen purge fs m) = keys fs /\ wfm (scan_gen purge fs m).
Proof.
  intros purge fs m Hw Hfs. unfold scan_gen, scan_plan. cbv zeta. rewrite add_loop_spec.
  set (removed := filter (fun f => negb (memZ f (keys fs))) (st_files m)).
  set (m1 := with_ts _ m).
  set (m2 := fold_left (fun m f => remove_file f m) removed m1).
  destruct (remove_loop_spec purge removed m1 Hw) as (B1 & B2 & B3 & B4). fold m2 in B1, B2, B3, B4.
  set (m3 := with_files (keys fs) m2).
  destruct (load_loop_spec purge fs (sortZ (keys (st_ts m3))) m3 B4 Hfs) as (C1 & C2 & C3 & C4).
  change (st_ts m3) with (st_ts m2) in *. rewrite B2 in *.
  destruct (load_plan fs _ _) as [ops ts3]. simpl in *.
  repeat split; auto. intros q. rewrite fold_left_app, C1. change (view_of m3 q) with (view_of m2 q). now rewrite B1.
Qed.

(* The third outcome of Parse.v is unreachable: every `.items()` sits behind its isinstance
   guard (guarded_no_crash), and the enum lookups fail with ValueError only. *)
From Coq Require Import ZArith List Bool String.
From PK Require Import Monitor.Parse.
Import ListNotations.

Lemma bind_no_crash : forall {A B} (x : outcome A) (f : A -> outcome B),
  x <> Crash -> (forall a, x = Ok a -> f a <> Crash) -> bind x f <> Crash.
Proof. intros A B [a| |] f H1 H2; simpl; auto; congruence. Qed.

Lemma mapM_no_crash : forall {A B} (f : A -> outcome B) l,
  (forall x, In x l -> f x <> Crash) -> mapM f l <> Crash.
Proof.
  induction l as [|x r IH]; intros H; simpl; [congruence|].
  apply bind_no_crash; [apply H; now left|]. intros y _.
  apply bind_no_crash; [apply IH; intros; apply H; now right|]. congruence.
Qed.

(* `x.items()` behind the code's `isinstance(x, dict)` guard *)
Lemma guarded_no_crash : forall {B} j (k : list (string * json) -> outcome B),
  (forall l, k l <> Crash) -> (if negb (is_obj j) then ValueErr else bind (items j) k) <> Crash.
Proof. intros B [] k H; simpl; auto; congruence. Qed.

Section P.
Variable object_types operations permissions sections : list string.

Lemma lookup_name_no_crash : forall names s, lookup_name names s <> Crash.
Proof. intros. unfold lookup_name. destruct (mem_str s names); congruence. Qed.

Lemma lookup_perm_no_crash : forall j, lookup_perm permissions j <> Crash.
Proof. intros []; simpl; try congruence. destruct (mem_str s permissions); congruence. Qed.

Lemma parse_policy_no_crash : forall j, parse_policy object_types operations permissions j <> Crash.
Proof.
  intros j. apply guarded_no_crash. intros l.
  apply mapM_no_crash. intros [ot ops] _. apply guarded_no_crash. intros l2.
  apply bind_no_crash.
  - apply mapM_no_crash. intros [o p] _.
    apply bind_no_crash; [apply lookup_name_no_crash|]. intros.
    apply bind_no_crash; [apply lookup_perm_no_crash|]. congruence.
  - intros. apply bind_no_crash; [apply lookup_name_no_crash|]. congruence.
Qed.

Lemma read_one_no_crash : forall j, read_one object_types operations permissions sections j <> Crash.
Proof.
  intros j. apply guarded_no_crash. intros l.
  destruct (Nat.eqb (List.length l) 0); [congruence|]. cbv zeta.
  destruct (subset (map fst l) sections).
  - apply bind_no_crash.
    + destruct (dget "preset" l) as [dp|]; [|congruence].
      destruct (truthy dp); [|congruence].
      apply bind_no_crash; [apply parse_policy_no_crash | congruence].
    + intros pre _. apply bind_no_crash; [|congruence].
      destruct (dget "groups" l) as [gp|]; [|congruence].
      destruct (truthy gp); [|congruence].
      apply guarded_no_crash. intros l3.
      apply bind_no_crash; [|congruence].
      apply mapM_no_crash. intros gv _.
      apply bind_no_crash; [apply parse_policy_no_crash | congruence].
  - destruct (subset (map fst l) object_types); [|congruence].
    apply bind_no_crash; [apply parse_policy_no_crash | congruence].
Qed.

(* every input - not JSON at all, or any JSON value whatsoever - is either parsed or
   rejected with ValueError; no other exception can escape to the monitor *)
Theorem read_policy_no_crash : forall blob,
  read_policy object_types operations permissions sections blob <> Crash.
Proof.
  intros [b|]; [|simpl; congruence]. apply guarded_no_crash. intros l.
  apply bind_no_crash; [|congruence].
  apply mapM_no_crash. intros nv _.
  apply bind_no_crash; [apply read_one_no_crash | congruence].
Qed.

End P.

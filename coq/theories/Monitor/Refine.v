(* The monitor refines the specification name by name.  The notion that carries it is eff v, the effective stack of a
   name (owner and definition in force on top of its cache stack): eff_vstep says what one file event does to it, and
   the simulation relation J ties it to the definers of the name in Spec.v.  run_refines_spec: the store follows the
   files on every history without a shadowed drop (with fixes/C18-stale-cache.diff: on every history); what holds of
   every name after any history is `tracked`. *)
From Coq Require Import ZArith List Bool.
From PK Require Import Monitor.AList Monitor.AListProofs Monitor.Monitor Monitor.Spec Monitor.Views.
Import ListNotations.
Open Scope Z_scope.

(* first entry of every file, in stack order *)
Fixpoint nodupfst (l : list centry) : list centry :=
  match l with
  | [] => []
  | e :: r => e :: filter (notf (fst e)) (nodupfst r)
  end.

(* the effective stack of a name: current owner and definition on top of the cache *)
Definition eff (v : view) : option (list centry) :=
  match v with
  | (None, None, None) => Some []
  | (Some d, Some o, Some c) => Some ((o, d) :: c)
  | _ => None
  end.

(* the effective stack of q, cut to the first entry of every file, is the list of q's definers *)
Definition J (l : list (fname * defs)) (q : pname) (v : view) : Prop :=
  exists E, eff v = Some E /\ nodupfst E = definers l q.

(* a reserved name has the built-in entry and no owner *)
Definition Jr (res : list (pname * defid)) (q : pname) (v : view) : Prop :=
  fst (fst v) = get q res /\ snd (fst v) = None.

Lemma notf_false : forall f e, notf f e = false -> fst e = f.
Proof. unfold notf. intros f e H. apply negb_false_iff in H. now apply Z.eqb_eq. Qed.

Lemma nodupfst_filter : forall f l, nodupfst (filter (notf f) l) = filter (notf f) (nodupfst l).
Proof.
  induction l as [|e r IH]; simpl; auto.
  destruct (notf f e) eqn:E; simpl.
  - rewrite ?E, IH. f_equal. apply filter_comm.
  - rewrite ?E, IH. apply notf_false in E. subst f.
    now rewrite filter_idem.
Qed.

Lemma filter_notf_id : forall f l, ~ In f (map fst l) -> filter (notf f) l = l.
Proof.
  induction l as [|e r IH]; simpl; intros H; auto.
  destruct (notf f e) eqn:E.
  - f_equal. apply IH. tauto.
  - apply notf_false in E. tauto.
Qed.

Lemma notf_pair : forall f g (d : defid), notf f (g, d) = negb (g =? f).
Proof. reflexivity. Qed.

Lemma definers_del : forall f l q, definers (del f l) q = filter (notf f) (definers l q).
Proof.
  induction l as [|[g ds] r IH]; intros q; simpl; auto.
  destruct (f =? g) eqn:E.
  - rewrite IH. destruct (get q ds); [|reflexivity].
    simpl. rewrite notf_pair, Z.eqb_sym, E. reflexivity.
  - simpl. destruct (get q ds); [|apply IH].
    simpl. rewrite notf_pair, Z.eqb_sym, E. simpl. now rewrite IH.
Qed.

Lemma definers_names : forall l q e, In e (definers l q) -> In q (names_of l).
Proof.
  induction l as [|[g ds] r IH]; intros q e; simpl; [tauto|].
  rewrite in_app_iff. destruct (get q ds) eqn:E.
  - intros _. left. simpl. destruct (memZ q (keys ds)) eqn:M; [now apply memZ_In|].
    rewrite memZ_keys_has in M. unfold has in M. rewrite E in M. discriminate.
  - intros H. right. eapply IH; eauto.
Qed.

(* what op_ok asks of a load: a file that no longer defines q is not among the shadowed definers of q *)
Lemma op_ok_load : forall l f ds q, op_ok l (OpLoad f ds) = true -> reserved q = false -> get q ds = None ->
  forall e r, definers l q = e :: r -> ~ In f (map fst r).
Proof.
  intros l f ds q Hok Hq Eg e r Hd. simpl in Hok. rewrite forallb_forall in Hok.
  assert (Hin : In q (names_of l)) by (apply (definers_names l q e); rewrite Hd; now left).
  specialize (Hok q Hin). unfold shadowed_drop in Hok.
  rewrite Hq, memZ_keys_has, Hd in Hok. unfold has in Hok. rewrite Eg in Hok.
  now apply negb_true_iff, memZ_false in Hok.
Qed.

Lemma eff_cases : forall v E, eff v = Some E ->
  (v = (None, None, None) /\ E = []) \/ exists d o c, v = (Some d, Some o, Some c) /\ E = (o, d) :: c.
Proof. intros [[[d|] [o|]] [c|]] E H; simpl in H; try discriminate; inversion H; eauto 6. Qed.

Lemma eff_inj : forall v v' E, eff v = Some E -> eff v' = Some E -> v = v'.
Proof.
  intros v v' E H H'.
  destruct (eff_cases v E H) as [[-> ->]|(d & o & c & -> & ->)],
           (eff_cases v' _ H') as [[-> Hx]|(d' & o' & c' & -> & Hx)]; try discriminate; [reflexivity|].
  now inversion Hx.
Qed.

Lemma eff_remove : forall f v E, eff v = Some E -> eff (v_remove f v) = Some (filter (notf f) E).
Proof.
  intros f v E H. destruct (eff_cases v E H) as [[-> ->]|(d & o & c & -> & ->)]; [reflexivity|].
  unfold v_remove, v_disassoc, owner_is, v_restore. simpl. rewrite notf_pair.
  destruct (o =? f); simpl; [|reflexivity].
  now destruct (filter (notf f) c) as [|[g d'] c'].
Qed.

Lemma eff_load : forall f d v E, eff v = Some E ->
  exists E', eff (v_load f d v) = Some E' /\ nodupfst E' = (f, d) :: filter (notf f) (nodupfst E).
Proof.
  intros f d v E H. destruct (eff_cases v E H) as [[-> ->]|(d0 & o & c & -> & ->)];
    [eexists; split; reflexivity|].
  unfold v_load. destruct (f =? o) eqn:Eo; simpl; [|eexists; split; reflexivity].
  apply Z.eqb_eq in Eo; subst o. eexists; split; [reflexivity|].
  simpl. f_equal. rewrite notf_pair, Z.eqb_refl. simpl. now rewrite filter_idem.
Qed.

(* One file event seen from one non reserved name: the effective stack stays defined, and
   stays the stack of definers unless the event is a shadowed drop in the released code. *)
Lemma eff_vstep : forall purge q v o E, reserved q = false -> eff v = Some E ->
  exists E', eff (vstep purge q v o) = Some E' /\
    forall l, purge || op_ok l o = true -> nodupfst E = definers l q -> nodupfst E' = definers (aop l o) q.
Proof.
  intros purge q v o E Hq HE.
  assert (Hrem : forall f, exists E', eff (v_remove f v) = Some E' /\
            forall l, nodupfst E = definers l q -> nodupfst E' = definers (del f l) q).
  { intros f. exists (filter (notf f) E). split; [now apply eff_remove|].
    intros l HN. now rewrite nodupfst_filter, HN, definers_del. }
  destruct o as [f|f ds]; simpl.
  - destruct (Hrem f) as (E' & HE' & HN'). eauto.
  - unfold v_loadfile. rewrite Hq. destruct (get q ds) as [d|] eqn:Eg.
    + destruct (eff_load f d v E HE) as (E' & HE' & HN'). exists E'. split; [assumption|].
      intros l _ HN. now rewrite HN', HN, definers_del.
    + destruct (Hrem f) as (E' & HE' & HN').
      destruct purge; [eauto|].
      destruct (owner_is f v) eqn:Eo.
      { unfold v_remove in HE'. rewrite owner_disassoc, Eo in HE'. eauto. }
      exists E. split; [assumption|]. intros l Hok HN.
      rewrite definers_del, <- HN. symmetry. apply filter_notf_id.
      destruct (eff_cases v E HE) as [[-> ->]|(d & o & c & -> & ->)]; [simpl; tauto|].
      unfold owner_is in Eo. simpl in *. intros [H|H]; [rewrite H, Z.eqb_refl in Eo; discriminate|].
      exact (op_ok_load l f ds q Hok Hq Eg _ _ (eq_sym HN) H).
Qed.

Lemma J_steps : forall purge q ops l v, reserved q = false ->
  J l q v -> purge || ops_ok l ops = true -> J (fold_left aop ops l) q (fold_left (vstep purge q) ops v).
Proof.
  intros purge q. induction ops as [|o r IH]; intros l v Hq (E & HE & HN) Hok; simpl; [now exists E|].
  simpl in Hok. rewrite orb_andb_distrib_r in Hok. apply andb_true_iff in Hok as [Ho Hr].
  destruct (eff_vstep purge q v o E Hq HE) as (E' & HE' & HN').
  apply IH; auto. exists E'. auto.
Qed.

Lemma Jr_steps : forall purge res q ops v, reserved q = true ->
  Jr res q v -> Jr res q (fold_left (vstep purge q) ops v).
Proof.
  intros purge res q ops v Hq Hv. apply fold_left_inv; [|assumption].
  intros [[s o'] c] o [H1 H2]. simpl in H1, H2. subst o'.
  destruct o as [f|f ds]; simpl; [now split|].
  unfold v_loadfile. rewrite Hq. destruct (get q ds), purge; now split.
Qed.

Definition names_inv (m : mstate) (a : astate) : Prop :=
  forall q, if reserved q then Jr (a_reserved a) q (view_of m q) else J (a_loaded a) q (view_of m q).

Definition Inv (m : mstate) (a : astate) : Prop :=
  wfm m /\ st_ts m = a_ts a /\ st_files m = a_files a /\ names_inv m a.

Lemma get_filter_reserved : forall (s : list (pname * defid)) q,
  get q (filter (fun kv => reserved (fst kv)) s) = if reserved q then get q s else None.
Proof.
  induction s as [|[k v] r IH]; intros q; simpl.
  - now destruct (reserved q).
  - destruct (reserved k) eqn:Ek; simpl; destruct (q =? k) eqn:E.
    + apply Z.eqb_eq in E; subst. now rewrite Ek.
    + apply IH.
    + apply Z.eqb_eq in E; subst. rewrite Ek. rewrite IH, Ek. reflexivity.
    + apply IH.
Qed.

Lemma view_init : forall s q, view_of (init s) q = (if reserved q then get q s else None, None, None).
Proof. intros. unfold view_of, init; simpl. now rewrite get_filter_reserved. Qed.

Lemma inv_init : forall s, Inv (init s) (spec_init s).
Proof.
  intros s. repeat split; try constructor.
  intros q. rewrite view_init. simpl. destruct (reserved q) eqn:Eq.
  - split; [simpl; now rewrite get_filter_reserved, Eq | reflexivity].
  - now exists [].
Qed.

Theorem inv_scan : forall purge fs m a, wf_fs fs -> Inv m a -> purge || step_ok fs a = true ->
  Inv (scan_gen purge fs m) (spec_step fs a).
Proof.
  intros purge fs m a Hfs (Hw & Hts & Hf & Hn) Hok.
  unfold step_ok in Hok. unfold spec_step. rewrite <- Hts, <- Hf in *.
  destruct (scan_view purge fs m Hw Hfs) as (S1 & S2 & S3 & S4).
  destruct (scan_plan fs (st_ts m) (st_files m)) as [ops ts']. simpl in *.
  repeat split; auto.
  intros q. rewrite S1. specialize (Hn q). simpl. destruct (reserved q) eqn:Eq.
  - now apply Jr_steps.
  - now apply J_steps.
Qed.

Lemma inv_run : forall purge h m a, Forall wf_fs h -> Inv m a -> purge || hist_ok_from a h = true ->
  Inv (fold_left (fun m fs => scan_gen purge fs m) h m) (fold_left (fun a fs => spec_step fs a) h a).
Proof.
  intros purge. induction h as [|fs r IH]; intros m a Hh HI Hok; simpl; [assumption|].
  inversion Hh; subst.
  simpl in Hok. rewrite orb_andb_distrib_r in Hok. apply andb_true_iff in Hok as [Ho Hr].
  apply IH; auto. now apply inv_scan.
Qed.

Lemma inv_store : forall m a, Inv m a -> forall q, get q (st_store m) = spec_store a q.
Proof.
  intros m a (_ & _ & _ & Hn) q. specialize (Hn q). unfold spec_store.
  destruct (reserved q).
  - destruct Hn as [H _]. exact H.
  - destruct Hn as (E & HE & HN). rewrite <- HN.
    destruct (eff_cases _ _ HE) as [[Hv ->]|(d & o & c & Hv & ->)];
      injection Hv as Hs _ _; now rewrite Hs.
Qed.

(* The store follows the files: for the code with fixes/C18-stale-cache.diff on every history,
   for the released code on every history without a shadowed drop. *)
Theorem run_refines_spec : forall purge s h, Forall wf_fs h -> purge || hist_ok s h = true ->
  forall q, get q (st_store (run_gen purge s h)) = spec_store (spec_run s h) q.
Proof. intros purge s h Hh Hok. apply inv_store, inv_run; auto. apply inv_init. Qed.

(* What holds of every name after any history, shadowed drops included: a reserved name has
   its initial store entry and no owner; any other name is absent from store, owner map and
   cache, or present in all three, so that l.120 `self.policy_cache.get(p).append` never meets
   None between scans. *)
Definition tracked (s : list (pname * defid)) (m : mstate) : Prop :=
  wfm m /\ forall q, if reserved q then Jr s q (view_of m q) else exists E, eff (view_of m q) = Some E.

Lemma tracked_scan : forall purge s fs m, wf_fs fs -> tracked s m -> tracked s (scan_gen purge fs m).
Proof.
  intros purge s fs m Hfs (Hw & Hn).
  destruct (scan_view purge fs m Hw Hfs) as (S1 & _ & _ & S4). split; [assumption|].
  intros q. rewrite S1. specialize (Hn q). destruct (reserved q) eqn:Hq.
  - now apply Jr_steps.
  - apply fold_left_inv; [|assumption].
    intros v o [E HE]. destruct (eff_vstep purge q v o E Hq HE) as (E' & HE' & _). eauto.
Qed.

Theorem run_tracked : forall purge s h, Forall wf_fs h -> tracked s (run_gen purge s h).
Proof.
  intros purge s h Hh. unfold run_gen.
  assert (H0 : tracked s (init s)).
  { split; [constructor|]. intros q. rewrite view_init.
    destruct (reserved q); [split; reflexivity | now exists []]. }
  revert H0. generalize (init s). induction Hh; intros m0 H0; simpl; [assumption|].
  apply IHHh. now apply tracked_scan.
Qed.

(* Two loops of scan_policies run over Python sets, whose iteration order depends on string
   hashing: the removed files (l.85) and the names a reloaded file no longer defines (l.131);
   the model runs them in list order.  What is proved about the order:
   - remove_file_comm: in a state with distinct owner-map keys where the name is consistent
     (eff defined) or unowned - every state between scans is one, by run_tracked - removing two
     files in either order gives the same view of the name and the same time stamps;
   - Views.view_drop: the step of the released loop over dropped names touches the view of its
     own name only, so two such steps commute in any state (C18.dropped_names_order_irrelevant);
     view_disassociate and view_restore say the same of the two loops of the repaired code.
   That every order is reached by swapping neighbours, and the swap in the middle of a loop
   (remove_file would have to be shown to keep the hypothesis of remove_file_comm), are not
   proved.  (The third set loop, l.83, only writes `file_timestamps[f] = 0` for distinct files.) *)
Lemma v_remove_comm : forall f1 f2 v,
  (exists E, eff v = Some E) \/ snd (fst v) = None ->
  v_remove f1 (v_remove f2 v) = v_remove f2 (v_remove f1 v).
Proof.
  intros f1 f2 v [[E HE]|Ho].
  - apply (eff_inj _ _ (filter (notf f1) (filter (notf f2) E))).
    + apply eff_remove. now apply eff_remove.
    + rewrite filter_comm. apply eff_remove. now apply eff_remove.
  - destruct v as [[s o] c]. simpl in Ho. subst o.
    unfold v_remove, v_disassoc, owner_is. simpl.
    destruct c as [c|]; simpl; [|reflexivity]. now rewrite filter_comm.
Qed.

Theorem remove_file_comm : forall f1 f2 m q, wfm m ->
  (exists E, eff (view_of m q) = Some E) \/ snd (fst (view_of m q)) = None ->
  view_of (remove_file f1 (remove_file f2 m)) q = view_of (remove_file f2 (remove_file f1 m)) q /\
  (forall g, get g (st_ts (remove_file f1 (remove_file f2 m))) = get g (st_ts (remove_file f2 (remove_file f1 m)))).
Proof.
  intros f1 f2 m q Hw Hc.
  destruct (remove_file_spec f2 m Hw) as (V2 & T2 & _ & W2). destruct (remove_file_spec f1 m Hw) as (V1 & T1 & _ & W1).
  destruct (remove_file_spec f1 _ W2) as (V12 & T12 & _). destruct (remove_file_spec f2 _ W1) as (V21 & T21 & _).
  split.
  - rewrite V12, V21, V2, V1. now apply v_remove_comm.
  - intros g. rewrite T12, T21, T2, T1, !get_del. destruct (g =? f1), (g =? f2); reflexivity.
Qed.

(* Two facts about filter; then what the association-list operations of AList.v do to `get`
   and to the list of keys. *)
From Coq Require Import ZArith List Bool.
From PK Require Import Monitor.AList.
Import ListNotations.
Open Scope Z_scope.

Lemma filter_idem : forall {A} (P : A -> bool) l, filter P (filter P l) = filter P l.
Proof.
  induction l; simpl; auto. destruct (P a) eqn:E; simpl; [rewrite E|]; congruence.
Qed.

Lemma filter_comm : forall {A} (P Q : A -> bool) l, filter P (filter Q l) = filter Q (filter P l).
Proof.
  induction l as [|a l IH]; simpl; auto.
  destruct (Q a) eqn:EQ, (P a) eqn:EP; simpl; rewrite ?EQ, ?EP, IH; reflexivity.
Qed.

Lemma memZ_In : forall x l, memZ x l = true <-> In x l.
Proof.
  intros. unfold memZ. rewrite existsb_exists. split.
  - intros [y [H1 H2]]. apply Z.eqb_eq in H2. now subst.
  - intros H. exists x. split; [assumption | apply Z.eqb_refl].
Qed.

Lemma memZ_false : forall x l, memZ x l = false <-> ~ In x l.
Proof. intros. rewrite <- memZ_In. symmetry. apply not_true_iff_false. Qed.

Lemma memZ_filter : forall (P : Z -> bool) l q, memZ q (filter P l) = P q && memZ q l.
Proof.
  intros. apply eq_true_iff_eq.
  rewrite andb_true_iff, !memZ_In, filter_In. tauto.
Qed.

Section P.
Context {V : Type}.
Implicit Types l : list (Z * V).

Lemma get_set : forall l k k' v, get k' (set k v l) = if k' =? k then Some v else get k' l.
Proof.
  induction l as [|[k0 v0] r IH]; intros; simpl; [reflexivity|].
  destruct (k =? k0) eqn:E; simpl.
  - apply Z.eqb_eq in E; subst k0. now destruct (k' =? k).
  - rewrite IH. destruct (k' =? k0) eqn:E0; [|reflexivity].
    apply Z.eqb_eq in E0; subst k0. now rewrite Z.eqb_sym, E.
Qed.

Lemma get_del : forall l k k', get k' (del k l) = if k' =? k then None else get k' l.
Proof.
  induction l as [|[k0 v0] r IH]; intros; simpl; [now destruct (k' =? k)|].
  destruct (k =? k0) eqn:E; simpl; rewrite IH.
  - apply Z.eqb_eq in E; subst k0. now destruct (k' =? k).
  - destruct (k' =? k0) eqn:E0; [|reflexivity].
    apply Z.eqb_eq in E0; subst k0. now rewrite Z.eqb_sym, E.
Qed.

Lemma get_In : forall l k v, get k l = Some v -> In (k, v) l.
Proof.
  induction l as [|[k0 v0] r IH]; intros k v; simpl; [discriminate|].
  destruct (k =? k0) eqn:E.
  - apply Z.eqb_eq in E; subst. intros H; inversion H; now left.
  - intros H; right; now apply IH.
Qed.

Lemma get_None_iff : forall l k, get k l = None <-> ~ In k (keys l).
Proof.
  induction l as [|[k0 v0] r IH]; intros; simpl; [tauto|].
  destruct (k =? k0) eqn:E.
  - apply Z.eqb_eq in E. intuition congruence.
  - apply Z.eqb_neq in E. rewrite IH. unfold keys. intuition congruence.
Qed.

Lemma In_get : forall l k v, NoDup (keys l) -> In (k, v) l -> get k l = Some v.
Proof.
  induction l as [|[k0 v0] r IH]; intros k v Hn; simpl; [tauto|].
  inversion Hn as [|? ? Hni Hr]; subst.
  intros [H|H].
  - inversion H; subst. now rewrite Z.eqb_refl.
  - destruct (k =? k0) eqn:E; [|now apply IH].
    apply Z.eqb_eq in E; subst. exfalso; apply Hni. now apply (in_map fst _ (k0, v)).
Qed.

Lemma memZ_keys_has : forall l q, memZ q (keys l) = has q l.
Proof.
  intros. unfold has. destruct (get q l) as [v|] eqn:E.
  - apply memZ_In. apply (in_map fst _ (q, v)). now apply get_In.
  - apply memZ_false. now apply get_None_iff.
Qed.

(* d[k] = v keeps the position of an existing key and appends a new one *)
Lemma keys_set : forall l k v, keys (set k v l) = if has k l then keys l else keys l ++ [k].
Proof.
  unfold has. induction l as [|[k0 v0] r IH]; intros; simpl; [reflexivity|].
  destruct (k =? k0) eqn:E; simpl.
  - apply Z.eqb_eq in E. now subst.
  - fold (keys (set k v r)). rewrite IH. now destruct (get k r).
Qed.

Lemma keys_del : forall l k, keys (del k l) = filter (fun x => negb (k =? x)) (keys l).
Proof.
  induction l as [|[k0 v0] r IH]; intros; simpl; [reflexivity|].
  destruct (k =? k0); simpl; now rewrite <- IH.
Qed.

Lemma nodup_keys_set : forall l k v, NoDup (keys l) -> NoDup (keys (set k v l)).
Proof.
  intros l k v H. rewrite keys_set. unfold has. destruct (get k l) eqn:E; [assumption|].
  apply (NoDup_Add (Add_app k (keys l) [])). rewrite app_nil_r.
  split; [assumption | now apply get_None_iff].
Qed.

Lemma nodup_keys_del : forall l k, NoDup (keys l) -> NoDup (keys (del k l)).
Proof. intros. rewrite keys_del. now apply NoDup_filter. Qed.

Lemma del_notin : forall l k, get k l = None -> del k l = l.
Proof.
  induction l as [|[k0 v0] r IH]; intros k; simpl; [reflexivity|].
  destruct (k =? k0) eqn:E; [discriminate|]. intros H. now rewrite IH.
Qed.

End P.

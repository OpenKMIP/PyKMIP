(* Model of kmip/services/server/monitor.py : PolicyDirectoryMonitor.
   Transcribed statement by statement from scan_policies,
   disassociate_policy_and_file, restore_or_delete_policy and
   initialize_tracking_structures (line numbers refer to monitor.py).

   Abstractions (see notes/C18.md):
   - file paths, policy names and policy definitions are integers (the harness
     numbers the files of the directory in sorted path order, 'default' = 0,
     'public' = 1, every other policy name >= 2, and every distinct parsed
     definition gets its own id);
   - the directory as seen by one scan is an fs_view: for every *.json file its
     mtime and the result of read_policy_from_file (None = ValueError);
   - a cache entry (time.time(), file, definition) is modelled as
     (file, definition): the time stamp is never read, it only makes the tuples
     of one stack pairwise different, so that `c.index(e)` in
     disassociate_policy_and_file finds e itself (the harness drives the
     monitor with a strictly increasing clock);
   - a per-name cache stack is a list whose HEAD is the TOP (Python appends and
     pops at the end);
   - loops over Python sets are run in the order of the underlying list
     (Refine.v: the result does not depend on that order);
   - an uncaught Python exception (None.append in l.120, getmtime of a file
     that is not there) sets st_crash; Invariants.v proves it stays false. *)
From Coq Require Import ZArith List Bool.
From PK Require Export Monitor.AList.
Import ListNotations.
Open Scope Z_scope.

Definition fname := Z.
Definition pname := Z.
Definition defid := Z.
Definition centry := (fname * defid)%type.

(* self.reserved_policies = ['default', 'public']  (l.65) *)
Definition reserved (p : pname) : bool := (p =? 0) || (p =? 1).

Record mstate := MState {
  st_store : list (pname * defid);          (* self.policy_store *)
  st_cache : list (pname * list centry);    (* self.policy_cache *)
  st_map   : list (pname * fname);          (* self.policy_map *)
  st_ts    : list (fname * Z);              (* self.file_timestamps *)
  st_files : list fname;                    (* self.policy_files *)
  st_crash : bool
}.

Definition with_store s m := MState s (st_cache m) (st_map m) (st_ts m) (st_files m) (st_crash m).
Definition with_cache c m := MState (st_store m) c (st_map m) (st_ts m) (st_files m) (st_crash m).
Definition with_map x m := MState (st_store m) (st_cache m) x (st_ts m) (st_files m) (st_crash m).
Definition with_ts t m := MState (st_store m) (st_cache m) (st_map m) t (st_files m) (st_crash m).
Definition with_files f m := MState (st_store m) (st_cache m) (st_map m) (st_ts m) f (st_crash m).
Definition crash m := MState (st_store m) (st_cache m) (st_map m) (st_ts m) (st_files m) true.

(* one *.json file as one scan sees it: mtime, parse result *)
Definition fentry := (fname * (Z * option (list (pname * defid))))%type.
Definition fs_view := list fentry.

(* initialize_tracking_structures (l.150-158): empty tracking structures, every
   non reserved name is popped from the shared store *)
Definition init (store0 : list (pname * defid)) : mstate :=
  MState (filter (fun kv => reserved (fst kv)) store0) [] [] [] [] false.

(* l.160-163 *)
Definition disassociate (p : pname) (f : fname) (m : mstate) : mstate :=
  match get p (st_cache m) with
  | None => m                                   (* c = [] is a fresh list *)
  | Some c => with_cache (set p (filter (fun e => negb (fst e =? f)) c) (st_cache m)) m
  end.

(* l.165-175 *)
Definition restore_or_delete (p : pname) (m : mstate) : mstate :=
  match get p (st_cache m) with
  | None | Some [] =>
      with_cache (del p (st_cache m)) (with_map (del p (st_map m)) (with_store (del p (st_store m)) m))
  | Some (e :: c) =>
      with_map (set p (fst e) (st_map m))
        (with_store (set p (snd e) (st_store m))
           (with_cache (set p c (st_cache m)) m))
  end.

(* [k for k, v in self.policy_map.items() if v == f] *)
Definition owned (f : fname) (m : mstate) : list pname :=
  map fst (filter (fun kv => snd kv =? f) (st_map m)).

(* body of the loop l.85-91 for one removed file *)
Definition remove_file (f : fname) (m : mstate) : mstate :=
  let m1 := with_ts (del f (st_ts m)) m in
  let m2 := fold_left (fun m p => disassociate p f m) (keys (st_cache m1)) m1 in
  fold_left (fun m p => restore_or_delete p m) (owned f m2) m2.

(* body of the loop l.106-130 for one policy of a freshly parsed file *)
Definition load_policy (f : fname) (m : mstate) (pd : pname * defid) : mstate :=
  let (p, d) := pd in
  if reserved p then m else
  let m1 :=
    if has p (st_store m) then
      match get p (st_map m), get p (st_store m), get p (st_cache m) with
      | Some o, Some d0, Some c =>
          if negb (f =? o) then with_cache (set p ((o, d0) :: c) (st_cache m)) m else m
      | _, _, _ => crash m          (* inconsistent tracking structures; unreachable (Invariants.v) *)
      end
    else with_cache (set p [] (st_cache m)) m in
  with_map (set p f (st_map m1)) (with_store (set p d (st_store m1)) m1).

(* body of the loop l.94-133 for one tracked file.
   purge = false: the code as released (l.131-133: only the names the file OWNS and no longer
   defines are disassociated and restored).
   purge = true: the code with fixes/C18-stale-cache.diff applied (the file's cache entries are
   dropped for EVERY name it no longer defines, then the names it owned are restored).
   gen/PolicyNames.v (monitor_purges_shadowed) says which of the two the source is. *)
Definition load_file_gen (purge : bool) (fs : fs_view) (m : mstate) (f : fname) : mstate :=
  match get f fs, get f (st_ts m) with
  | Some (t, content), Some t0 =>
      if t >? t0 then
        let m1 := with_ts (set f t (st_ts m)) m in
        let old_p := owned f m1 in
        match content with
        | None => m1                                             (* except ValueError: continue *)
        | Some new_p =>
            let m2 := fold_left (load_policy f) new_p m1 in
            let dropped := filter (fun p => negb (memZ p (keys new_p))) old_p in
            if purge then
              let stale := filter (fun p => negb (memZ p (keys new_p))) (keys (st_cache m2)) in
              let m3 := fold_left (fun m p => disassociate p f m) stale m2 in
              fold_left (fun m p => restore_or_delete p m) dropped m3
            else
              fold_left (fun m p => restore_or_delete p (disassociate p f m)) dropped m2
        end
      else m
  | None, Some _ => crash m          (* os.path.getmtime raises *)
  | _, None => m                     (* f is taken from the keys of st_ts *)
  end.

(* scan_policies, l.78-133 *)
Definition scan_gen (purge : bool) (fs : fs_view) (m : mstate) : mstate :=
  let policy_files := keys fs in
  let added := filter (fun f => negb (memZ f (st_files m))) policy_files in
  let m1 := fold_left (fun m f => with_ts (set f 0 (st_ts m)) m) added m in
  let removed := filter (fun f => negb (memZ f policy_files)) (st_files m) in
  let m2 := fold_left (fun m f => remove_file f m) removed m1 in
  let m3 := with_files policy_files m2 in
  fold_left (load_file_gen purge fs) (sortZ (keys (st_ts m3))) m3.

Definition run_gen (purge : bool) (store0 : list (pname * defid)) (h : list fs_view) : mstate :=
  fold_left (fun m fs => scan_gen purge fs m) h (init store0).

(* the released code *)
Definition scan := scan_gen false.
Definition run := run_gen false.
